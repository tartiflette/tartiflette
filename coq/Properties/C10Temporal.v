(* C10, Date / Time / DateTime.  Statements are about the definitions of Gen/Temporal_gen.v, whose
   parameters (strptime formats, the part of isoformat() returned) the translator EXTRACTS from
   scalar/builtins/date.py, time.py, datetime.py on every run; the library calls themselves
   (datetime.strptime, isoformat, str.split) are modelled in Model/Temporal.v and tied to the
   interpreter by the C10 correspondence check.  Quantified over ALL dates and times.
   Statements only. *)
From Coq Require Import ZArith List String Lia.
From TV Require Import Py.Prelude Model.Temporal Gen.Temporal_gen Proofs.TemporalLaws.

(* what the source says now *)
Theorem C10_temporal_parameters :
  date_input_format = "%Y-%m-%d" /\ date_literal_format = "%Y-%m-%d" /\ date_output_sel = Some 0%nat /\
  time_input_format = "%H:%M:%S" /\ time_literal_format = "%H:%M:%S" /\ time_output_sel = Some 1%nat /\
  datetime_input_format = "%Y-%m-%dT%H:%M:%S" /\ datetime_literal_format = "%Y-%m-%dT%H:%M:%S" /\ datetime_output_sel = None.
Proof. do 8 (split; [reflexivity|]). reflexivity. Qed.

Section C10T.
Variable O : oracles.

(* ---- input coercion accepts the canonical spelling of every real date / time, denoting it ---- *)
Theorem C10_date_input_canonical y m d :
  valid_date y m d = true -> date_coerce_input O (PStr (iso_date y m d)) = Ok (mk_datetime y m d 0 0 0 0).
Proof. intros H. unfold date_coerce_input, date_input_format. rewrite temporal_input_of_string, (strptime_date y m d H). reflexivity. Qed.

Theorem C10_time_input_canonical h mi s :
  valid_time h mi s = true -> time_coerce_input O (PStr (iso_time h mi s 0)) = Ok (mk_datetime 1900 1 1 h mi s 0).
Proof. intros H. unfold time_coerce_input, time_input_format. rewrite temporal_input_of_string, (strptime_time h mi s H). reflexivity. Qed.

Theorem C10_datetime_input_canonical y m d h mi s :
  valid_date y m d = true -> valid_time h mi s = true ->
  datetime_coerce_input O (PStr (iso_date y m d ++ "T" ++ iso_time h mi s 0)) = Ok (mk_datetime y m d h mi s 0).
Proof.
  intros H1 H2. unfold datetime_coerce_input, datetime_input_format.
  rewrite temporal_input_of_string, (strptime_datetime y m d h mi s H1 H2). reflexivity.
Qed.

(* ---- ... and nothing but strings denoting real calendar / clock values ---- *)
Theorem C10_date_input_exact v r :
  date_coerce_input O v = Ok r ->
  exists s y m d, v = PStr s /\ r = mk_datetime y m d 0 0 0 0 /\ valid_date y m d = true.
Proof.
  intros H. destruct (temporal_input_only_strings _ _ _ _ H) as (s & -> & Hs).
  destruct (strptime_date_sound s r Hs) as (y & m & d & -> & Hv). exists s, y, m, d. repeat split; assumption.
Qed.

Theorem C10_time_input_exact v r :
  time_coerce_input O v = Ok r ->
  exists s h mi sec, v = PStr s /\ r = mk_datetime 1900 1 1 h mi sec 0 /\ valid_time h mi sec = true.
Proof.
  intros H. destruct (temporal_input_only_strings _ _ _ _ H) as (s & -> & Hs).
  destruct (strptime_time_sound s r Hs) as (h & mi & sec & -> & Hv). exists s, h, mi, sec. repeat split; assumption.
Qed.

Theorem C10_datetime_input_exact v r :
  datetime_coerce_input O v = Ok r ->
  exists s y m d h mi sec, v = PStr s /\ r = mk_datetime y m d h mi sec 0 /\
                           valid_date y m d = true /\ valid_time h mi sec = true.
Proof.
  intros H. destruct (temporal_input_only_strings _ _ _ _ H) as (s & -> & Hs).
  destruct (strptime_datetime_sound s r Hs) as (y & m & d & h & mi & sec & -> & Hv & Hw).
  exists s, y, m, d, h, mi, sec. repeat split; assumption.
Qed.

(* ---- result coercion of a well-formed datetime renders the canonical text of the same value ---- *)
Theorem C10_date_output y m d h mi s us :
  valid_date y m d = true -> valid_time h mi s = true -> 0 <= us <= 999999 ->
  date_coerce_output O (mk_datetime y m d h mi s us) = Ok (PStr (iso_date y m d)).
Proof. intros Hd _ _. exact (temporal_output_date O y m d h mi s us Hd). Qed.

Theorem C10_time_output y m d h mi s us :
  valid_date y m d = true -> valid_time h mi s = true -> 0 <= us <= 999999 ->
  time_coerce_output O (mk_datetime y m d h mi s us) = Ok (PStr (iso_time h mi s us)).
Proof. exact (temporal_output_time O y m d h mi s us). Qed.

Theorem C10_datetime_output y m d h mi s us :
  datetime_coerce_output O (mk_datetime y m d h mi s us) = Ok (PStr (iso_date y m d ++ "T" ++ iso_time h mi s us)).
Proof. exact (temporal_output_datetime O y m d h mi s us). Qed.

(* ---- idempotence: what input coercion produced is rendered as a text that input coercion maps back to it ---- *)
Theorem C10_date_idempotent v r :
  date_coerce_input O v = Ok r ->
  exists w, date_coerce_output O r = Ok (PStr w) /\ date_coerce_input O (PStr w) = Ok r.
Proof.
  intros H. destruct (C10_date_input_exact v r H) as (s & y & m & d & _ & -> & Hv).
  exists (iso_date y m d). split; [now apply temporal_output_date|now apply C10_date_input_canonical].
Qed.

Theorem C10_time_idempotent v r :
  time_coerce_input O v = Ok r ->
  exists w, time_coerce_output O r = Ok (PStr w) /\ time_coerce_input O (PStr w) = Ok r.
Proof.
  intros H. destruct (C10_time_input_exact v r H) as (s & h & mi & sec & _ & -> & Hv).
  exists (iso_time h mi sec 0). split; [apply C10_time_output; [reflexivity|exact Hv|lia]|now apply C10_time_input_canonical].
Qed.

Theorem C10_datetime_idempotent v r :
  datetime_coerce_input O v = Ok r ->
  exists w, datetime_coerce_output O r = Ok (PStr w) /\ datetime_coerce_input O (PStr w) = Ok r.
Proof.
  intros H. destruct (C10_datetime_input_exact v r H) as (s & y & m & d & h & mi & sec & _ & -> & Hv & Hw).
  exists (iso_date y m d ++ "T" ++ iso_time h mi sec 0). split; [apply C10_datetime_output|now apply C10_datetime_input_canonical].
Qed.

(* ---- a string literal and a variable carrying the same string coerce alike; no other literal kind is accepted ---- *)
Theorem C10_date_literal_eq_variable s :
  date_parse_literal O (PAst KStringValue (PStr s)) =
  match date_coerce_input O (PStr s) with Ok r => Ok r | Raise OutOfFuel => Raise OutOfFuel | Raise _ => Ok PUndef end.
Proof. exact (temporal_literal_eq_variable _ O s). Qed.
Theorem C10_time_literal_eq_variable s :
  time_parse_literal O (PAst KStringValue (PStr s)) =
  match time_coerce_input O (PStr s) with Ok r => Ok r | Raise OutOfFuel => Raise OutOfFuel | Raise _ => Ok PUndef end.
Proof. exact (temporal_literal_eq_variable _ O s). Qed.
Theorem C10_datetime_literal_eq_variable s :
  datetime_parse_literal O (PAst KStringValue (PStr s)) =
  match datetime_coerce_input O (PStr s) with Ok r => Ok r | Raise OutOfFuel => Raise OutOfFuel | Raise _ => Ok PUndef end.
Proof. exact (temporal_literal_eq_variable _ O s). Qed.

Theorem C10_temporal_other_literals_refused fmt k v :
  k <> KStringValue -> temporal_parse_literal fmt O (PAst k v) = Ok PUndef.
Proof. destruct k; try reflexivity. contradiction. Qed.

End C10T.

Definition O0 : oracles := {| float_of_string := fun _ => None; str_of_value := fun _ => None |}.
(* non-vacuity: a leap day, the last second of year 9999, two refusals, and an unpadded date that
   strptime accepts *)
Example C10T_examples :
  date_coerce_input O0 (PStr "2024-02-29") = Ok (mk_datetime 2024 2 29 0 0 0 0) /\
  datetime_coerce_input O0 (PStr "9999-12-31T23:59:59") = Ok (mk_datetime 9999 12 31 23 59 59 0) /\
  date_coerce_input O0 (PStr "2023-02-29") = Raise TypeError /\
  time_coerce_input O0 (PStr "24:00:00") = Raise TypeError /\
  date_coerce_input O0 (PStr "2024-2-9") = Ok (mk_datetime 2024 2 9 0 0 0 0).
Proof. repeat split. Qed.

Print Assumptions C10_temporal_parameters.
Print Assumptions C10_date_input_canonical.
Print Assumptions C10_time_input_canonical.
Print Assumptions C10_datetime_input_canonical.
Print Assumptions C10_date_input_exact.
Print Assumptions C10_time_input_exact.
Print Assumptions C10_datetime_input_exact.
Print Assumptions C10_date_output.
Print Assumptions C10_time_output.
Print Assumptions C10_datetime_output.
Print Assumptions C10_date_idempotent.
Print Assumptions C10_time_idempotent.
Print Assumptions C10_datetime_idempotent.
Print Assumptions C10_date_literal_eq_variable.
Print Assumptions C10_time_literal_eq_variable.
Print Assumptions C10_datetime_literal_eq_variable.
Print Assumptions C10_temporal_other_literals_refused.
