(* C05 — field and directive arguments reach resolvers spec-coerced; literal = variable.
   Statements only.  The implementation model is Model/ImplInput.v (argument_coercer,
   coerce_arguments, the literal coercer chains with variables substituted inside literals),
   tied to /repo by the C05 correspondence check; the leaf laws "a literal of the natural kind
   and a variable carrying the same JSON value coerce to the same result" are the C10 theorems
   about the translated scalars.  PARTIAL: the statement "no value of a type other than the
   declared one is ever delivered" is NOT proved here: it depends on the variable-usage
   validation rule (C07) -- see C05_variable_substituted_everywhere, which shows the literal
   path performs no type check of its own.  Properties/C05Typing.v proves it under premises that
   say so (C05_no_value_of_another_type_is_delivered). *)
From Coq Require Import ZArith List String.
From TV Require Import Py.Prelude Model.Schema Model.ImplInput Model.SpecArgs Model.SpecLiteral Proofs.LiteralFacts Proofs.ArgsRefine Proofs.LiteralRefine.
Import ListNotations.

Section C05.
Variable sch : schema.

Theorem C05_variable_substituted_everywhere fuel t vs nn l x :
  input_leaf_ok sch (named_of t) = true ->
  get_literal_coercer sch (S fuel) t vs nn (LVar l x) =
  Ok (subst_var vs (nn || is_non_null t) x).
Proof.
  rewrite literal_coercer_refines_spec, subst_var_is_var_value.
  exact (variable_substituted_everywhere sch fuel t vs nn l x).
Qed.

Theorem C05_argument_variable_passthrough fuel ad floc a vs x l v :
  a_value a = LVar l x -> dict_get x vs = Some v ->
  (is_none v = false \/ is_non_null (in_type ad) = false) -> is_undef v = false ->
  argument_coercer sch fuel ad floc (Some a) vs = Ok (AVal v).
Proof. exact (argument_variable_passthrough sch fuel ad floc a vs x l v). Qed.

(* Refinement to the specification's CoerceArgumentValues (Model/SpecArgs.v, written from the
   specification text with the literal coercion of a non-variable value as its only parameter):
   for EVERY argument definition, argument node (present with any value, a variable, or absent),
   variable map and fuel, the implementation model gives the specification's outcome: no entry,
   this value, or a field error. *)
Theorem C05_argument_coercion_refines_the_specification fuel ad floc anode vs :
  res_matches (argument_coercer sch fuel ad floc anode vs)
              (spec_argument (impl_coerce_literal sch fuel vs) ad anode vs).
Proof. exact (argument_coercer_refines sch _ fuel ad floc anode vs (fun _ _ => eq_refl)). Qed.

(* ... and for the whole argument map of a field or directive: the same dictionary reaches the
   resolver, and argument errors are raised exactly when the specification throws a field error *)
Theorem C05_argument_map_refines_the_specification fuel ads floc anodes vs :
  map_matches (coerce_arguments_aux sch fuel ads floc anodes vs)
              (spec_arguments (impl_coerce_literal sch fuel vs) ads anodes vs).
Proof. exact (coerce_arguments_refines sch _ fuel ads floc anodes vs (fun _ _ => eq_refl)). Qed.

(* The literal coercer chain (wrappers folded around a leaf, the non-null flag threaded through)
   IS the coercion of a literal by recursion on the declared type (Model/SpecLiteral.v): equal
   results -- value, invalid, or the same exception -- for every schema (ill-formed ones
   included), type, literal with variables anywhere inside, variable map and fuel. *)
Theorem C05_literal_coercer_refines_the_specification fuel t vs nn l :
  get_literal_coercer sch fuel t vs nn l = spec_literal sch fuel t vs nn l.
Proof. exact (literal_coercer_refines_spec sch fuel t vs nn l). Qed.

(* ... so what reaches the resolver is CoerceArgumentValues with literals coerced by the
   specification's rules, with no parameter left *)
Theorem C05_arguments_are_CoerceArgumentValues fuel ads floc anodes vs :
  map_matches (coerce_arguments_aux sch fuel ads floc anodes vs)
              (spec_arguments (spec_coerce_literal sch fuel vs) ads anodes vs).
Proof. exact (coerce_arguments_refines_spec sch fuel ads floc anodes vs). Qed.

Theorem C05_argument_omitted fuel ad floc vs :
  in_default ad = None ->
  argument_coercer sch fuel ad floc None vs =
  if is_non_null (in_type ad) then Ok (AErr (in_name ad, ARequired, floc)) else Ok AUndefined.
Proof. exact (argument_omitted sch fuel ad floc vs). Qed.

Theorem C05_argument_explicit_null fuel ad floc a vs l :
  a_value a = LNull l ->
  argument_coercer sch fuel ad floc (Some a) vs =
  if is_non_null (in_type ad) then Ok (AErr (in_name ad, ANonNullNull, l)) else Ok (AVal PNone).
Proof. exact (argument_explicit_null sch fuel ad floc a vs l). Qed.

Theorem C05_argument_unprovided_variable fuel ad floc a vs l x :
  a_value a = LVar l x -> dict_get x vs = None -> in_default ad = None ->
  argument_coercer sch fuel ad floc (Some a) vs =
  if is_non_null (in_type ad) then Ok (AErr (in_name ad, AVarNotProvided, l)) else Ok AUndefined.
Proof. exact (argument_unprovided_variable sch fuel ad floc a vs l x). Qed.

Theorem C05_default_eq_literal fuel ad floc vs d n :
  in_default ad = Some d -> plain_literal d = true ->
  bind (argument_coercer sch fuel ad floc None vs) (fun o => Ok (strip_loc o)) =
  bind (argument_coercer sch fuel ad floc (Some (mk_arg n d)) vs) (fun o => Ok (strip_loc o)).
Proof. exact (argument_default_eq_literal sch fuel ad floc vs d n). Qed.

Theorem C05_failure_is_local fuel floc anodes vs ads vals errs :
  coerce_arguments_aux sch fuel ads floc anodes vs = Ok (vals, errs) ->
  (forall k v, In (k, v) vals -> exists ad, In ad ads /\ in_name ad = k) /\
  (forall e, In e errs -> exists ad, In ad ads /\ in_name ad = fst (fst e)).
Proof. exact (coerce_arguments_keys sch fuel floc anodes vs ads vals errs). Qed.

End C05.

(* non-vacuity *)
Definition ex5_scalars (n : string) : option scalar_ops :=
  if String.eqb n "Int" then
    Some {| s_input := fun v => Ok v;
            s_literal := fun a => match a with PAst KIntValue (PStr "5") => Ok (PInt 5) | _ => Ok PUndef end;
            s_output := fun v => Ok v |}
  else None.
Definition ex5_schema : schema :=
  {| types := [("Int", DScalar)]; query_type := "Query"; mutation_type := None;
     subscription_type := None; scalars := ex5_scalars |}.
Example C05_nonvacuous :
  (* [5, $w] for [Int!] with w = 7: the variable is substituted inside the list literal *)
  get_literal_coercer ex5_schema 5 (TList (TNonNull (TNamed "Int"))) [("w", PInt 7)] false
    (LList (1,1)%Z [LInt (1,2)%Z (PStr "5"); LVar (1,5)%Z "w"]) = Ok (PList [PInt 5; PInt 7])
  /\ (* a null runtime value at the non-null item position invalidates the whole literal *)
  get_literal_coercer ex5_schema 5 (TList (TNonNull (TNamed "Int"))) [("w", PNone)] false
    (LList (1,1)%Z [LInt (1,2)%Z (PStr "5"); LVar (1,5)%Z "w"]) = Ok PUndef.
Proof. split; reflexivity. Qed.

Print Assumptions C05_variable_substituted_everywhere.
Print Assumptions C05_argument_variable_passthrough.
Print Assumptions C05_argument_omitted.
Print Assumptions C05_argument_explicit_null.
Print Assumptions C05_argument_unprovided_variable.
Print Assumptions C05_default_eq_literal.
Print Assumptions C05_failure_is_local.
Print Assumptions C05_argument_coercion_refines_the_specification.
Print Assumptions C05_argument_map_refines_the_specification.
Print Assumptions C05_literal_coercer_refines_the_specification.
Print Assumptions C05_arguments_are_CoerceArgumentValues.
