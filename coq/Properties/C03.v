(* C03 — returned data conforms to schema and selection whatever resolvers return.
   Statements only, about the implementation model of execution, for every schema, document,
   variable map, configuration, fuel and EVERY user code: the resolver and type-resolver oracles
   range over the whole value universe `pyval` (wrong kinds, NaN/inf/huge numbers, strings for
   numbers, opaque objects, exception instances, unknown runtime types) and may raise. *)
From Coq Require Import List.
From TV Require Import Py.Prelude Model.Schema Model.ImplInput Model.ImplExec Proofs.ExecConform
  Proofs.ExecErrors Proofs.BuiltinLeaves Proofs.ExecJson.
Import ListNotations.

Section C03.
Variable sch : schema.
Variable doc : document.
Variable vs : vars.
Variable U : usercode.
Variable cfg : config.

(* a value produced for a field conforms to the field's declared type for the merged field
   nodes: no null at a non-null position, lists where lists are declared, leaves produced by
   the scalar's serialiser / declared enum values, objects holding exactly the collected
   response keys of a possible object type, recursively *)
Theorem C03_field_value_conforms fuel otype value opath k ns s v s' :
  resolve_field sch doc vs U cfg fuel otype value opath k ns s = (OVal (Some v), s') ->
  exists node rest fd, ns = node :: rest /\
    get_field_definition sch otype (fn_name node) = Some fd /\
    conf_ty sch doc vs (fd_type fd) ns v.
Proof.
  intros H. destruct (resolve_field_ok sch doc vs U cfg fuel _ _ _ _ _ _ _ _ H) as (node & rest & -> & fd & Hfd & Hc).
  exists node, rest, fd. auto.
Qed.

(* the whole response: data is null or an object with exactly the collected root keys whose
   values conform *)
Theorem C03_data_conforms op root r :
  execute_operation sch doc vs U cfg op root = OVal r ->
  r_data r = PNone \/
  exists rt fs v kv, root_type_of sch (o_kind op) = Some rt /\
    collect_fields sch doc vs COLLECT_FUEL rt (o_sels op) [] [] = Some (fs, v) /\
    r_data r = PDict kv /\ conf_fields sch doc vs rt fs kv.
Proof. apply execute_operation_conforms. Qed.

(* execute never raises *)
Theorem C03_never_raises op root l : execute_operation sch doc vs U cfg op root <> OExc l.
Proof. apply execute_operation_never_raises. Qed.

End C03.

(* "the response is JSON-serialisable": the data of every response is a JSON value (null, booleans, integers, finite
   floats, text, lists and string-keyed objects of such) as soon as every scalar's serialiser produces JSON values ... *)
Theorem C03_data_is_json sch doc vs U cfg op root r :
  (forall n ops v r0, find_type sch n = Some DScalar -> scalars sch n = Some ops -> s_output ops v = Ok r0 -> is_undef r0 = false ->
                      json_val r0 = true) ->
  execute_operation sch doc vs U cfg op root = OVal r -> json_val (r_data r) = true.
Proof. exact (data_is_json sch doc vs U cfg op root r). Qed.

(* ... which the five built-in scalars, as regenerated from /repo, do *)
Theorem C03_builtin_schema_data_is_json O sch doc vs U cfg op root r :
  (forall n, scalars sch n = builtin_scalars O n) ->
  execute_operation sch doc vs U cfg op root = OVal r -> json_val (r_data r) = true.
Proof. exact (builtin_schema_data_is_json O sch doc vs U cfg op root r). Qed.

(* leaves of the built-in scalars at conforming positions: Int an integer within signed 32 bits, Float a finite number,
   String / ID a string, Boolean a boolean (or null where the position is nullable) *)
Theorem C03_builtin_leaves_have_their_wire_type O sch doc vs n nodes v :
  (forall m, scalars sch m = builtin_scalars O m) -> find_type sch n = Some DScalar ->
  conf_ty sch doc vs (TNamed n) nodes v -> v = PNone \/ builtin_leaf n v = true.
Proof. exact (builtin_leaf_conforms O sch doc vs n nodes v). Qed.

Print Assumptions C03_field_value_conforms.
Print Assumptions C03_data_conforms.
Print Assumptions C03_never_raises.
Print Assumptions C03_data_is_json.
Print Assumptions C03_builtin_schema_data_is_json.
Print Assumptions C03_builtin_leaves_have_their_wire_type.
