(* C16 — the query cache and request history never change a response.
   Statements only.  Model/Cache.v: lru_cache semantics (disabled / unbounded / capacity n) in
   front of parse_and_validate_query, for EVERY finite request history and every configuration.
   Hypothesis keq_sound: cache keys that compare equal denote the same (query, schema) -- this is
   where a key that is too coarse breaks the theorem; that the code's key has this property, and
   that execution does not mutate the cached document, is established by the correspondence check
   (position-by-position comparison with an uncached engine + fingerprint of the cached document). *)
From Coq Require Import List Arith.
From TV Require Import Model.Cache Proofs.CacheRegistry.
Import ListNotations.

Section C16.
Variable K V : Type.
Variable keq : K -> K -> bool.
Variable f : K -> V.
Hypothesis keq_sound : forall a b, keq a b = true -> f a = f b.

(* from the empty cache, any history gets exactly what the uncached function gives *)
Theorem C16_cache_transparent cfg (history : list K) :
  fst (cache_run K V keq f cfg history []) = map f history.
Proof. apply (cache_run_transparent K V keq f keq_sound cfg history []). constructor. Qed.

(* ... and so does any later history: earlier requests leave no trace *)
Theorem C16_history_leaves_no_trace cfg (earlier later : list K) :
  fst (cache_run K V keq f cfg later (snd (cache_run K V keq f cfg earlier []))) = map f later.
Proof.
  apply (cache_run_transparent K V keq f keq_sound cfg later).
  apply (cache_run_transparent K V keq f keq_sound cfg earlier []). constructor.
Qed.

(* responses are a function of what parsing returned: caching is invisible in them *)
Theorem C16_responses_transparent {Req Resp} (key : Req -> K) (exec : V -> Req -> Resp) cfg (history : list Req) :
  map (fun p => exec (fst p) (snd p))
      (combine (fst (cache_run K V keq f cfg (map key history) [])) history) =
  map (fun r => exec (f (key r)) r) history.
Proof.
  rewrite C16_cache_transparent. induction history as [|r rs IH]; cbn; [reflexivity|]. now rewrite IH.
Qed.

Theorem C16_lru_bounded cap k c :
  List.length c <= cap -> List.length (snd (cache_call K V keq f (CacheLru cap) k c)) <= cap.
Proof. apply lru_bounded. Qed.

End C16.

Example C16_nonvacuous :
  fst (cache_run nat nat Nat.eqb (fun k => k * k) (CacheLru 1) [3; 3; 4; 3; 4; 4] []) = [9; 9; 16; 9; 16; 16].
Proof. reflexivity. Qed.

Print Assumptions C16_cache_transparent.
Print Assumptions C16_history_leaves_no_trace.
Print Assumptions C16_responses_transparent.
Print Assumptions C16_lru_bounded.
