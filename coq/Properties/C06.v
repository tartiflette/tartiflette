(* C06 — valid documents are never refused by validation.
   The statements, with two worked examples; the proofs are in Proofs/Validate*.v and Proofs/SingleRoot*.v.
   Model/ImplValidate.v transcribes the walk of transformers.py with its shared
   context and the 26 rules; Model/SpecValidate.v states the rules after the specification.
   Proved here (for every schema and document): the soundness of the rules the property singles
   out -- an acyclic fragment graph (sharing, repeated spreads, any definition order) is never
   reported as a cycle; the six uniqueness rules report nothing when the names are distinct -- and
   that a document without validation error is handed to execution unchanged; further, that what the walk
   appends and records is a function of the type scope and of the document, that acceptance is the walk phase
   and every document-level rule being quiet, and is characterised node by node; that values of correct type
   are accepted at every depth, and subscriptions with one root key and possible spreads are not reported.
   PARTIAL: `spec_validb V doc = true -> impl_validate V doc = VErrors []` for ALL rules together is
   not proved; the check decides it per document (specification verdict inside Coq vs the real
   engine) and ties the implementation model to the engine by comparing error sets. *)
From Coq Require Import ZArith List String Bool.
From TV Require Import Model.Schema Model.ImplExec Model.Envelope
     Model.ImplValidate Model.SpecValidate Model.RunValidate Proofs.ValidateProofs Proofs.ValidateRules Proofs.ValidateValues Proofs.ValidateWalk Proofs.ValidateTree Proofs.SingleRoot Proofs.ValidateSpreads Proofs.ValidateScopes Proofs.ValidatePure.
Import ListNotations.

Open Scope list_scope.

(* fragments may share sub-fragments, be spread any number of times, be defined in any order:
   whenever no fragment reaches itself (a rank decreases along every spread edge between defined
   fragments) the cycle rule reports nothing and does not run out of fuel *)
Theorem C06_acyclic_fragments_accepted frs : acyclic frs -> cycle_rule frs = Some [].
Proof. exact (cycle_rule_sound frs). Qed.

(* the uniqueness rules never fire on distinct names *)
Theorem C06_distinct_operation_names_accepted doc :
  r_operation_names doc = true -> operation_name_errors (operations doc) = [].
Proof. apply operation_names_rule. Qed.
Theorem C06_distinct_fragment_names_accepted doc :
  r_fragment_names doc = true -> fragment_name_errors (fragments doc) = [].
Proof. apply fragment_names_rule. Qed.
Theorem C06_distinct_variables_accepted vds :
  nodupb (map v_name vds) = true -> uniq_errors "variable-uniqueness" v_name v_loc None vds = [].
Proof. apply uniq_errors_nodupb. Qed.
Theorem C06_distinct_arguments_accepted path args :
  nodupb (map a_name args) = true -> uniq_errors "argument-uniqueness" a_name a_loc path args = [].
Proof. apply uniq_errors_nodupb. Qed.
Theorem C06_distinct_directives_accepted path ds :
  nodupb (map d_name ds) = true -> uniq_errors "directives-are-unique-per-location" d_name d_loc path ds = [].
Proof. apply uniq_errors_nodupb. Qed.
Theorem C06_distinct_input_fields_accepted path (fields : list (string * lit)) :
  nodupb (map fst fields) = true ->
  uniq_errors "input-object-field-uniqueness" fst (fun kv => lit_loc (snd kv)) path fields = [].
Proof. apply uniq_errors_nodupb. Qed.

(* three more rules proved exact for every schema and document (Proofs/ValidateRules.v); here the
   direction C06 needs: what the specification allows is not reported.  The last two read the list
   of spreads the walk accumulates in its shared context: that list is exactly the document's. *)
Theorem C06_lone_anonymous_accepted doc :
  r_lone_anonymous doc = true -> lone_anonymous_errors (operations doc) = [].
Proof. apply lone_anonymous_exact_doc. Qed.
Theorem C06_used_fragments_accepted V doc :
  r_fragments_used V doc = true -> must_be_used_errors (fragments doc) (frag_spreads (walked V doc)) = [].
Proof. apply must_be_used_exact. Qed.
Theorem C06_defined_spread_targets_accepted V doc :
  r_spread_targets V doc = true -> spread_target_errors (fragments doc) (frag_spreads (walked V doc)) = [].
Proof. apply spread_targets_exact. Qed.
Theorem C06_walk_records_exactly_the_documents_spreads V doc :
  map fst (frag_spreads (walked V doc)) = spread_names V doc.
Proof. symmetry. apply spread_names_are_the_walks. Qed.
Theorem C06_rules_read_the_documents_spreads V doc :
  frag_spreads (walked V doc) = doc_spreads doc.
Proof. apply walked_spreads. Qed.

(* THE WALK IS A PURE FUNCTION OF THE TYPE SCOPE (Proofs/ValidateWalk.v): from EVERY state of the shared
   context, walking a selection appends exactly sel_errs -- defined by recursion on the selection with the
   scope handed down as the parent_type bookkeeping does -- or ends crashed when a rule raises, and restores
   the scope.  A state already refused stays as it is. *)
Theorem C06_walk_is_a_function_of_the_scope V path s st :
  obs st (walk_selection V path s st) (sel_errs V (parent_type st) path s) /\
  parent_type (walk_selection V path s st) = parent_type st.
Proof. exact (walk_selection_obs V s path st). Qed.

(* ACCEPTANCE DECOMPOSED: a document reaches the executor exactly when the walk phase and every
   document-level rule report nothing and none raises *)
Theorem C06_acceptance_decomposed V doc :
  accepted V doc = true <->
  quiet (walk_phase_errs V doc) /\
  (quiet (cycle_rule (fragments doc)) /\ operation_name_errors (operations doc) = [] /\
   lone_anonymous_errors (operations doc) = [] /\
   quiet (single_root_rule doc) /\ fragment_name_errors (fragments doc) = [] /\
   spread_target_errors (fragments doc) (frag_spreads (ValidateWalk.walked V doc)) = [] /\
   must_be_used_errors (fragments doc) (frag_spreads (ValidateWalk.walked V doc)) = [] /\
   inline_possible_errors V (inlined_in (ValidateWalk.walked V doc)) ++
     spread_possible_errors V (fragments doc) (spreaded_in (ValidateWalk.walked V doc)) = [] /\
   quiet (uses_defined_rule (ValidateWalk.walked V doc) (operations doc)) /\
   quiet (variables_used_rule (ValidateWalk.walked V doc) (operations doc)) /\
   quiet (usages_allowed_rule V (ValidateWalk.walked V doc) (operations doc))).
Proof. rewrite accepted_iff_clean. apply validate_clean_iff. Qed.

(* 5.6.1 values of correct type, exact at every depth (list items, input-object fields, self-referential input
   types): a literal the specification accepts for its expected type leaves the rule's accumulator untouched.
   Hypotheses: expected types are input types (what C12 guarantees of every schema an engine is built from). *)
Theorem C06_correct_values_accepted V
  (Hin : forall n ifs f, vfind_type V n = Some (DInput ifs) -> In f ifs -> input_ty V (in_type f))
  v path argloc c acc :
  input_ty V c -> value_ok V v c = true -> vct V path argloc v c acc = Some acc.
Proof. intros Hc H. exact (proj1 (vct_exact V Hin v path argloc c acc Hc) H). Qed.

Theorem C06_correct_arguments_accepted V
  (Hin : forall n ifs f, vfind_type V n = Some (DInput ifs) -> In f ifs -> input_ty V (in_type f))
  path ds args :
  (forall d, In d ds -> input_ty V (in_type d)) -> args_ok V ds args = true ->
  vct_arguments V path (Some ds) args = Some [].
Proof. intros Hd H. exact (proj1 (vct_arguments_exact V Hin path ds args Hd) H). Qed.

(* one field node: the six rules run at a field are quiet EXACTLY when the specification's predicates hold at
   that site (directive locations, field exists, leaf selection, values / names / required arguments) *)
Theorem C06_field_node_exact V
  (Hin : forall n ifs f, vfind_type V n = Some (DInput ifs) -> In f ifs -> input_ty V (in_type f))
  scope path l name args dirs hs :
  (forall f d, vfind_field V scope name = Some f -> In d (fd_args f) -> input_ty V (in_type d)) ->
  (field_rules_errs V scope path l name args dirs hs = Some [] <->
   forallb (fun d => match s_directive V (d_name d) with Some dd => mem_str "FIELD" (dd_locs dd) | None => true end) dirs = true /\
   (String.eqb name "__typename" = true \/ field_reduced_type V scope name <> None) /\
   (forall d, field_reduced_type V scope name = Some d -> Bool.eqb hs (is_composite_def d) = true) /\
   (forall f, vfind_field V scope name = Some f ->
      args_ok V (fd_args f) args = true /\
      forallb (fun a => existsb (fun d => String.eqb (in_name d) (a_name a)) (fd_args f)) args = true /\
      forallb (fun d => negb (is_non_null (in_type d)) || match in_default d with Some _ => true | None => false end ||
                        existsb (fun a => String.eqb (a_name a) (in_name d)) args) (fd_args f) = true)).
Proof. exact (field_node_quiet V Hin scope path l name args dirs hs). Qed.

(* ACCEPTANCE CHARACTERISED (Proofs/ValidateTree.v): the engine hands a document to execution EXACTLY when
   every node of every selection tree satisfies the specification's predicates at that node (`doc_walk_ok`:
   argument names / uniqueness / required arguments, values of correct type at every depth, input-field
   uniqueness inside literals, directives defined / unique / in valid locations with their own argument
   rules, field exists, leaf selections, type conditions existing and composite, variable definitions) with
   the scope handed down the tree, the fragment graph is acyclic, operation and fragment names are unique,
   an anonymous operation is alone, every spread names a defined fragment, every fragment is used -- and the
   five rule functions not related to the specification here (single root field, possible spreads, the three
   variable rules) report nothing.  Hypotheses: expected types of values are input types (C12). *)
Theorem C06_acceptance_characterised V
  (Hin : forall n ifs f, vfind_type V n = Some (DInput ifs) -> In f ifs -> input_ty V (in_type f))
  (Hfields : forall scope name f d, vfind_field V scope name = Some f -> In d (fd_args f) -> input_ty V (in_type d))
  (Hdirs : forall n dd d, vfind_directive V n = Some dd -> In d (dd_args dd) -> input_ty V (in_type d)) doc :
  accepted V doc = true <->
  doc_walk_ok V doc = true /\
  acyclic (fragments doc) /\ r_operation_names doc = true /\ r_lone_anonymous doc = true /\
  r_fragment_names doc = true /\ r_spread_targets V doc = true /\ r_fragments_used V doc = true /\
  quiet (single_root_rule doc) /\
  inline_possible_errors V (inlined_in (ValidateWalk.walked V doc)) ++
    spread_possible_errors V (fragments doc) (spreaded_in (ValidateWalk.walked V doc)) = [] /\
  quiet (uses_defined_rule (ValidateWalk.walked V doc) (operations doc)) /\
  quiet (variables_used_rule (ValidateWalk.walked V doc) (operations doc)) /\
  quiet (usages_allowed_rule V (ValidateWalk.walked V doc) (operations doc)).
Proof. exact (accepted_characterised V Hin Hfields Hdirs doc). Qed.

(* a document the walk accepts is executed: the response is that of the executor on that document *)
Theorem C06_accepted_documents_run {A} (coercer : gerr -> A) V U cfg doc opname raw root :
  impl_validate V doc = VErrors [] ->
  validate_and_execute coercer V U cfg doc opname raw root =
  engine_execute A coercer (vs V) U cfg (PDoc doc) opname raw root.
Proof. intros H. unfold validate_and_execute, parsed_of. now rewrite H. Qed.

(* non-vacuity: a diamond with a repeated spread, defined after use *)
Definition F (n : string) (sels : list selection) : fragment :=
  {| fr_name := n; fr_type := "Query"; fr_dirs := []; fr_sels := sels; fr_loc := (1, 1)%Z |}.
Definition sp (n : string) : selection := SSpread (1, 1)%Z n [].
Definition diamond : list fragment :=
  [F "A" [sp "B"; sp "C"; sp "B"]; F "B" [sp "D"]; F "C" [SField (1, 1)%Z None "x" [] [] [sp "D"]]; F "D" []].
Example C06_diamond_is_acyclic : acyclic diamond.
Proof.
  exists (fun n => if String.eqb n "A" then 3 else if String.eqb n "D" then 1 else 2)%nat.
  intros f n g Hf Hn Hg.
  repeat (destruct Hf as [<-|Hf]; [repeat (destruct Hn as [<-|Hn]; [inversion Hg; auto with arith|]); try contradiction|]).
  contradiction.
Qed.
Example C06_diamond_not_reported : cycle_rule diamond = Some [].
Proof. reflexivity. Qed.

(* 5.2.3.1 single root field: a document whose subscriptions each reach ONE response key at the root --
   however often it is written, directly, through inline fragments and through fragment spreads (shared,
   repeated, nested) -- is not refused by the rule *)
Theorem C06_one_root_key_written_many_times_accepted doc errs :
  (forall o, In o (operations doc) -> o_kind o = OpSubscription ->
             exists k0, forall k, reachable_key (fragments doc) (o_sels o) k -> k = k0) ->
  single_root_rule doc = Some errs -> errs = [].
Proof. exact (single_root_rule_accepts doc errs). Qed.

(* 5.5.2.3: a document whose inline fragments and spreads of defined fragments can all apply where they are written is
   not reported by the rule *)
Theorem C06_possible_spreads_accepted V doc :
  (forall scope tc l, In (scope, (tc, l)) (doc_inl V doc) -> applies_in V scope tc = true) ->
  (forall scope n l p f, In (scope, (n, l, p)) (doc_spr V doc) -> find_fragment (fragments doc) n = Some f ->
                         applies_in V scope (Some (fr_type f)) = true) ->
  inline_possible_errors V (inlined_in (ValidateWalk.walked V doc)) ++
  spread_possible_errors V (fragments doc) (spreaded_in (ValidateWalk.walked V doc)) = [].
Proof. intros H1 H2. apply (possible_spreads_exact V doc). split; assumption. Qed.

(* ACCEPTANCE IS A PREDICATE OF THE DOCUMENT: no conjunct mentions the shared, mutable walk context.  The books
   the variable rules read (variables used, arguments whose value is a variable, spreads -- per operation and per fragment)
   are a pure function of the document (`books_ctx`), and so are the recorded inline fragments and spreads. *)
Theorem C06_walk_books_are_a_function_of_the_document V doc :
  per_op (ValidateWalk.walked V doc) = doc_per_op V doc /\ per_frag (ValidateWalk.walked V doc) = doc_per_frag V doc.
Proof. exact (walked_scopes V doc). Qed.

Theorem C06_acceptance_is_a_predicate_of_the_document V
  (Hin : forall n ifs f, vfind_type V n = Some (DInput ifs) -> In f ifs -> input_ty V (in_type f))
  (Hfields : forall scope name f d, vfind_field V scope name = Some f -> In d (fd_args f) -> input_ty V (in_type d))
  (Hdirs : forall n dd d, vfind_directive V n = Some dd -> In d (dd_args dd) -> input_ty V (in_type d)) doc :
  accepted V doc = true <->
  doc_walk_ok V doc = true /\
  acyclic (fragments doc) /\ r_operation_names doc = true /\ r_lone_anonymous doc = true /\
  r_fragment_names doc = true /\ r_spread_targets V doc = true /\ r_fragments_used V doc = true /\
  quiet (single_root_rule doc) /\
  ((forall scope tc l, In (scope, (tc, l)) (doc_inl V doc) -> applies_in V scope tc = true) /\
   (forall scope n l p f, In (scope, (n, l, p)) (doc_spr V doc) -> find_fragment (fragments doc) n = Some f ->
                          applies_in V scope (Some (fr_type f)) = true)) /\
  quiet (uses_defined_rule (books_ctx V doc) (operations doc)) /\
  quiet (variables_used_rule (books_ctx V doc) (operations doc)) /\
  quiet (usages_allowed_rule V (books_ctx V doc) (operations doc)).
Proof. exact (accepted_is_a_predicate_of_the_document V Hin Hfields Hdirs doc). Qed.

Print Assumptions C06_acyclic_fragments_accepted.
Print Assumptions C06_distinct_operation_names_accepted.
Print Assumptions C06_distinct_fragment_names_accepted.
Print Assumptions C06_distinct_variables_accepted.
Print Assumptions C06_distinct_arguments_accepted.
Print Assumptions C06_distinct_directives_accepted.
Print Assumptions C06_distinct_input_fields_accepted.
Print Assumptions C06_accepted_documents_run.
Print Assumptions C06_lone_anonymous_accepted.
Print Assumptions C06_used_fragments_accepted.
Print Assumptions C06_defined_spread_targets_accepted.
Print Assumptions C06_walk_records_exactly_the_documents_spreads.
Print Assumptions C06_rules_read_the_documents_spreads.
Print Assumptions C06_walk_is_a_function_of_the_scope.
Print Assumptions C06_acceptance_decomposed.
Print Assumptions C06_correct_values_accepted.
Print Assumptions C06_correct_arguments_accepted.
Print Assumptions C06_field_node_exact.
Print Assumptions C06_acceptance_characterised.
Print Assumptions C06_one_root_key_written_many_times_accepted.
Print Assumptions C06_possible_spreads_accepted.
Print Assumptions C06_walk_books_are_a_function_of_the_document.
Print Assumptions C06_acceptance_is_a_predicate_of_the_document.
