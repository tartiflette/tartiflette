(* C17 — engines registered under different schema names are independent.
   Statements only.  Model/Registry.v: the process-global SchemaRegistry keyed by schema name,
   for EVERY finite sequence of registrations / SDL registrations / cooks in any interleaving.
   PARTIAL: Python module import caching and what user modules do at import time are runtime; the
   check compares co-resident engines with the same bundle built alone in a fresh process. *)
From Coq Require Import List String.
From TV Require Import Model.Registry Proofs.CacheRegistry.
Import ListNotations.

Section C17.
Variable Impl Sdl : Type.

(* what the operations about schema name n observe (registration errors, and what cook reads:
   the implementations and the SDL) is what they observe when the other names' operations are
   removed from the history *)
Theorem C17_projection n (ops : list (reg_op Impl Sdl)) :
  outs_of Impl Sdl n ops (snd (reg_run Impl Sdl [] ops)) =
  snd (reg_run Impl Sdl [] (filter (fun o => String.eqb (op_schema Impl Sdl o) n) ops)).
Proof. now apply registry_projection. Qed.

(* in particular two histories with the same operations about n give n the same engine *)
Corollary C17_independent_of_other_names n (ops ops' : list (reg_op Impl Sdl)) :
  filter (fun o => String.eqb (op_schema Impl Sdl o) n) ops =
  filter (fun o => String.eqb (op_schema Impl Sdl o) n) ops' ->
  outs_of Impl Sdl n ops (snd (reg_run Impl Sdl [] ops)) =
  outs_of Impl Sdl n ops' (snd (reg_run Impl Sdl [] ops')).
Proof. intros H. now rewrite !C17_projection, H. Qed.

End C17.

Example C17_nonvacuous :
  let it k nm i := {| ri_kind := k; ri_name := nm; ri_impl := i |} in
  outs_of nat nat "a"
    [OpRegister nat nat "a" (it RResolver "Query.x" 1); OpRegister nat nat "b" (it RResolver "Query.x" 2);
     OpSdl nat nat "b" 20; OpSdl nat nat "a" 10; OpCook nat nat "b"; OpCook nat nat "a"]
    (snd (reg_run nat nat []
      [OpRegister nat nat "a" (it RResolver "Query.x" 1); OpRegister nat nat "b" (it RResolver "Query.x" 2);
       OpSdl nat nat "b" 20; OpSdl nat nat "a" 10; OpCook nat nat "b"; OpCook nat nat "a"]))
  = [RegOk nat nat; RegOk nat nat; Cooked nat nat [it RResolver "Query.x" 1] (Some 10)].
Proof. reflexivity. Qed.

Print Assumptions C17_projection.
Print Assumptions C17_independent_of_other_names.
