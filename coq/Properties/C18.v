(* C18 — execute always answers with a well-formed GraphQL response.
   Statements only, about the implementation model of Engine.execute (Model/Envelope.v) with the
   parser + validation as an oracle: for EVERY parser verdict, operation name, variables object,
   user code and total error coercer.  `engine_execute` is a total function into `envelope`:
   nothing can escape it (the catch-all of Engine.execute is the last branch).
   Outside the model: which texts are syntax errors and the locations the parser reports
   (libgraphqlparser is absent; its stand-in is trusted); the check validates on the real engine
   that locations lie inside the request text. *)
From Coq Require Import List.
From TV Require Import Py.Prelude Model.Schema Model.ImplInput Model.ImplExec Model.Envelope.
Import ListNotations.

Section C18.
Variable A : Type.
Variable coercer : gerr -> A.
Variable sch : schema.
Variable U : usercode.
Variable cfg : config.

(* every branch of Engine.execute ends in build_response *)
Lemma engine_execute_built p opname raw root :
  exists data errs log, engine_execute A coercer sch U cfg p opname raw root = build_response A coercer data errs log.
Proof.
  unfold engine_execute. destruct p as [l| |errs|d]; [| | |destruct (impl_execute sch d U cfg opname raw root)];
    eexists _, _, _; reflexivity.
Qed.

(* `errors` is present exactly when something went wrong, and is then non-empty *)
Theorem C18_errors_key_iff_nonempty p opname raw root :
  match e_errors A (engine_execute A coercer sch U cfg p opname raw root) with
  | None => e_coercer_calls A (engine_execute A coercer sch U cfg p opname raw root) = []
  | Some l => l <> []
  end.
Proof. destruct (engine_execute_built p opname raw root) as (data & [|e es] & log & ->); [reflexivity|discriminate]. Qed.

(* the error coercer is awaited exactly once per reported error, in order, and what it returns
   is what appears in `errors` *)
Theorem C18_error_coercer_once p opname raw root :
  let e := engine_execute A coercer sch U cfg p opname raw root in
  match e_errors A e with
  | Some l => l = map coercer (e_coercer_calls A e)
  | None => e_coercer_calls A e = []
  end.
Proof. destruct (engine_execute_built p opname raw root) as (data & [|e es] & log & ->); reflexivity. Qed.

(* syntax errors (and any other parsing failure) give data: null without running anything *)
Theorem C18_parse_failure_runs_nothing p opname raw root :
  (forall d, p <> PDoc d) ->
  let e := engine_execute A coercer sch U cfg p opname raw root in
  e_data A e = PNone /\ e_log A e = [].
Proof.
  intros Hp. destruct p as [l| |errs|d]; auto. exfalso. eapply Hp. reflexivity.
Qed.

(* failed operation selection (unknown name, ambiguous anonymous) likewise *)
Theorem C18_failed_selection_runs_nothing d opname raw root :
  select_operation d opname = None ->
  let e := engine_execute A coercer sch U cfg (PDoc d) opname raw root in
  e_data A e = PNone /\ e_log A e = [] /\ e_errors A e <> None.
Proof.
  intros Hs. unfold engine_execute, impl_execute. rewrite Hs. repeat split. discriminate.
Qed.

(* refused variables likewise *)
Theorem C18_refused_variables_run_nothing d opname raw root op vs e es :
  select_operation d opname = Some op ->
  coerce_variables sch 40 (o_vars op) raw = Ok (vs, e :: es) ->
  let env := engine_execute A coercer sch U cfg (PDoc d) opname raw root in
  e_data A env = PNone /\ e_log A env = [].
Proof.
  intros Hs Hv. unfold engine_execute, impl_execute. rewrite Hs, Hv. auto.
Qed.

End C18.

Print Assumptions C18_errors_key_iff_nonempty.
Print Assumptions C18_error_coercer_once.
Print Assumptions C18_parse_failure_runs_nothing.
Print Assumptions C18_failed_selection_runs_nothing.
Print Assumptions C18_refused_variables_run_nothing.
