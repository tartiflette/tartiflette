(* C12 — an engine is never built from an SDL that breaks a checked schema rule.
   Statements only.  Model/SchemaBuild.v transcribes schema_from_document (redefinitions refused),
   _validate_extensions, the extension merge and the ten validators of _validate in the order
   GraphQLSchema.bake runs them; Model/SpecSchema.v states the rules of the property.
   Proved for every SDL model: duplicate type / directive definitions (built-ins included) are
   refused; after the extensions are merged, a field of an undefined type, an argument or input
   field whose type is undefined or not an input type (field or directive, behind any wrappers,
   also when added by an extension), a missing or undefined root type, an object without fields, a
   union containing itself (also through an extension), a repeated enum value, a scalar without
   implementation and a non-awaitable directive hook each make the build fail; the engine's
   interface field-type check is exactly the specification's covariance rule (IsValidImplementationFieldType).
   Also proved (Proofs/SchemaInterfaces.v): an object that does not honour an interface it declares (missing
   field, field type not a valid implementation type, interface argument missing or of another type, an
   additional required argument, `implements` naming an undefined type or a non-interface) is refused, for
   every schema whose interface fields do not use the reserved meta-field names.
   Also proved (Proofs/SchemaExtensions.v): an extension the specification predicate refuses (unknown target,
   another kind, a member -- enum value, field, input field, interface, union member -- that exists already, a
   directive the target already carries, a schema directive already there) makes the build fail.
   `extend schema` naming an operation whose root type is already defined is refused (C12_schema_operation_redefinition_refused);
   within one run of schema_ext_ops (the extension validator's pass over the operations of an `extend schema`) an operation
   whose root is already among the extended ones is reported (schema_ext_ops_twice). *)
From Coq Require Import List String.
From TV Require Import Model.Schema Model.SchemaBuild Model.SpecSchema Proofs.SchemaProofs Proofs.SchemaInterfaces Proofs.SchemaExtensions Proofs.SchemaRoots
     Gen.Wiring_gen Proofs.Wiring.
Import ListNotations.

Theorem C12_duplicate_definitions_rejected s : v_duplicate_definitions s = true -> builds s = false.
Proof. exact (duplicate_definitions_rejected s). Qed.

Theorem C12_defective_schema_rejected s g0 :
  initial s = inl g0 -> defect_after_merge (fold_left apply_ext (s_exts s) g0) = true -> builds s = false.
Proof. exact (build_rejects_defects s g0). Qed.

Theorem C12_validators_report_defects g : defect_after_merge g = true -> validate g <> Some [].
Proof. exact (defect_rejected g). Qed.

Theorem C12_interface_type_check_exact g ft it :
  same_as_interface_type g ft it = Some (valid_impl_type g ft it).
Proof. exact (interface_type_check_exact g ft it). Qed.

(* the interface clauses: whatever the specification's "object honours its interfaces" rejects, the build refuses *)
Theorem C12_unhonoured_interface_rejected s g0 :
  initial s = inl g0 ->
  (forall i, iface_fields_plain (fold_left apply_ext (s_exts s) g0) i) ->
  v_interface_not_honoured (fold_left apply_ext (s_exts s) g0) = true -> builds s = false.
Proof. exact (build_rejects_unhonoured_interfaces s g0). Qed.

Theorem C12_validator_reports_unhonoured_interfaces g :
  (forall i, iface_fields_plain g i) -> v_interface_not_honoured g = true -> v_follow_interfaces g <> Some [].
Proof. exact (interfaces_not_honoured_reported g). Qed.

(* invalid extensions: whatever the specification's `ext_ok` refuses, the build refuses *)
Theorem C12_invalid_extension_rejected s : v_invalid_extension s = true -> builds s = false.
Proof. exact (build_rejects_invalid_extensions s). Qed.

Theorem C12_extension_validators_report_invalid_extensions s g0 :
  initial s = inl g0 -> v_invalid_extension s = true -> validate_extensions g0 (s_exts s) <> [].
Proof. exact (invalid_extension_reported s g0). Qed.

(* `extend schema { mutation: M }` while the mutation root type is already defined: refused *)
Theorem C12_schema_operation_redefinition_refused s g0 ops dirs k v :
  initial s = inl g0 -> In (XSchema ops dirs) (s_exts s) -> In (k, v) ops -> g_has_type g0 (op_name_of g0 k) = true ->
  builds s = false.
Proof. exact (schema_operation_redefinition_refused s g0 ops dirs k v). Qed.

(* root operation types are checked on the MERGED schema: whichever definition or extension named them, an
   undefined query root, or a mutation / subscription root that is not the default name and is undefined,
   never yields an engine; in particular when the last extension is `extend schema { mutation: V }`, V undefined *)
Theorem C12_undefined_root_after_merge_refused s g0 :
  initial s = inl g0 ->
  let g := fold_left apply_ext (s_exts s) g0 in
  (defined g (g_query g) = false \/
   (g_mutation g <> "Mutation"%string /\ defined g (g_mutation g) = false) \/
   (g_subscription g <> "Subscription"%string /\ defined g (g_subscription g) = false)) ->
  builds s = false.
Proof. exact (undefined_root_after_merge_refused s g0). Qed.

Theorem C12_extension_naming_undefined_mutation_root_refused s g0 front ops dirs v :
  initial s = inl g0 -> s_exts s = (front ++ [XSchema ops dirs])%list ->
  op_lookup "mutation" (g_mutation (fold_left apply_ext front g0)) ops = v -> v <> "Mutation"%string ->
  defined (fold_left apply_ext (s_exts s) g0) v = false ->
  builds s = false.
Proof. exact (last_extension_undefined_mutation_root_refused s g0 front ops dirs v). Qed.

(* tie to the current source (regenerated on every run): the validator lists and the order of the
   steps of GraphQLSchema.bake are the ones the build model transcribes *)
Theorem C12_source_runs_the_modelled_validators :
  src_schema_validators = model_schema_validators /\ src_extension_validators = model_extension_validators /\
  src_bake_steps = model_bake_steps.
Proof. exact (conj schema_validators_are_the_models (conj extension_validators_are_the_models bake_steps_are_the_models)). Qed.

(* non-vacuity *)
Definition T (n : string) (d : typedef) : tdecl := {| td_name := n; td_def := d; td_dirs := [] |}.
Definition bad : sdl :=
  {| s_types := [T "Query" (DObject [] [{| fd_name := "a"; fd_type := TList (TNonNull (TNamed "Nope")); fd_args := [] |}]);
                 T "U" (DUnion ["Query"])];
     s_dirdefs := []; s_exts := [XType "U" (DUnion ["U"]) []]; s_schema := []; s_schema_dirs := []; s_scalar_impls := []; s_member_dirs := [] |}.
Example C12_bad_has_defects :
  exists g0, initial bad = inl g0 /\ defect_after_merge (fold_left apply_ext (s_exts bad) g0) = true.
Proof. eexists. split; reflexivity. Qed.
Example C12_bad_not_built : builds bad = false.
Proof. reflexivity. Qed.

Print Assumptions C12_source_runs_the_modelled_validators.
Print Assumptions C12_duplicate_definitions_rejected.
Print Assumptions C12_defective_schema_rejected.
Print Assumptions C12_validators_report_defects.
Print Assumptions C12_interface_type_check_exact.
Print Assumptions C12_unhonoured_interface_rejected.
Print Assumptions C12_validator_reports_unhonoured_interfaces.
Print Assumptions C12_invalid_extension_rejected.
Print Assumptions C12_extension_validators_report_invalid_extensions.
Print Assumptions C12_schema_operation_redefinition_refused.
Print Assumptions C12_undefined_root_after_merge_refused.
Print Assumptions C12_extension_naming_undefined_mutation_root_refused.
