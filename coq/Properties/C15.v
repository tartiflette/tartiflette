(* C15 — concurrent requests on one engine do not influence each other.
   Statements only.  Requests in flight together are the children of one top-level fan-out over
   request programs of the async calculus; the per-request state that is read (ExecutionContext:
   variable values, operation, context) lives inside each program, what a request appends (errors,
   invocations) goes to the one log of the run.
   PARTIAL: that the engine shares no OTHER mutable state between requests (the baked schema, the
   parse cache and the parsed documents are shared and must stay read-only) is not a theorem about
   20k lines of Python: it is established by the correspondence check (interleaved requests vs
   each request run alone, fingerprint of the cached document, requests issued afterwards). *)
From Coq Require Import List String Permutation.
From TV Require Import Py.Prelude Model.ImplExec Model.Async Proofs.AsyncProofs Proofs.AsyncBridge.
Import ListNotations.

Section C15.
Variable oracle : site -> string -> string -> pyval -> list (string * pyval) -> uret.

(* under every schedule of the model, what is handed on is computed from the results (the data) each
   request has when run alone with every resolver returning at once.  A pick names a blocked
   coroutine by its response path: of two requests blocked at the same path the one earlier in the
   fan-out is released first, so completions of same-path resolvers in the other order are not
   among the schedules quantified over *)
Theorem C15_isolation reqs k picks r evs :
  run_sched oracle picks (Gather reqs k) = Some (PDone r, evs) ->
  r = fst (run_seq oracle (k (map (fun q => fst (run_seq oracle q)) reqs))).
Proof.
  intros H. destruct (schedule_independence oracle _ _ _ _ H) as [-> _].
  now rewrite run_seq_gather, run_seqs_fst.
Qed.

(* and a request run alone under any schedule has that same response *)
Theorem C15_alone_any_schedule q picks r evs :
  run_sched oracle picks q = Some (PDone r, evs) -> r = fst (run_seq oracle q).
Proof. intros H. now destruct (schedule_independence oracle _ _ _ _ H). Qed.

(* the events of all requests together are those of the requests run alone (nothing extra, nothing
   lost): the log of the fan-out is a permutation of the concatenated solo logs.  Events carry no
   request identity, so this speaks of the multiset of all errors and invocations, not of which
   request an error belongs to *)
Theorem C15_events_are_the_union reqs picks r evs :
  run_sched oracle picks (Gather reqs (fun rs => Ret (RKVs []))) = Some (PDone r, evs) ->
  Permutation evs (snd (run_seqs oracle reqs)).
Proof.
  intros H. destruct (schedule_independence oracle _ _ _ _ H) as [_ Hp].
  cbn in Hp. now rewrite app_nil_r in Hp.
Qed.

End C15.

(* each request program of the fan-out is the engine's executor for that request (its own document,
   variables, operation, root value, configuration): the response a request has "when run alone" in
   C15_isolation is the response of the state-passing executor C01-C03 are proved about *)
Theorem C15_alone_is_the_executor sch doc vs U cfg op root :
  response_of (fst (run_seq (resolver U) (a_execute_operation sch doc vs U cfg op root)))
              (snd (run_seq (resolver U) (a_execute_operation sch doc vs U cfg op root))) =
  execute_operation sch doc vs U cfg op root.
Proof. exact (execute_operation_bridge sch doc vs U cfg op root). Qed.

Print Assumptions C15_alone_is_the_executor.
Print Assumptions C15_isolation.
Print Assumptions C15_alone_any_schedule.
Print Assumptions C15_events_are_the_union.
