(* C08 — results do not depend on resolver scheduling or concurrency settings.
   Statements; the proofs are in Proofs/AsyncProofs.v and Proofs/AsyncBridge.v, their corollaries are
   derived here.  Model/Async.v: the engine's fork/join/merge logic as programs of a small
   calculus (Call = await a user coroutine, Gather = asyncio.gather with results merged by index,
   Emit = append to the request's write-only state), with the scheduler semantics of the gated
   driver (start every child, release one blocked coroutine at a time).  The theorems hold for
   EVERY program of the calculus and every pick sequence, hence for the executor written in it
   (a_execute_operation), which the check runs against the real engine under enumerated schedules.
   PARTIAL (runtime, outside the model): asyncio's task wake-up order beyond FIFO start, gather
   internals, cancellation, timeouts, thread-pool resolvers.  Identical data across the sibling and
   list strategies (engine-wide or per field: `field_parent` / `field_list` of the configuration) is
   C08_config_data_eq (from the C01 refinement, which holds for every configuration); PARTIAL (decided
   per run): the argument-coercion option (gather / one by one), which the models do not distinguish. *)
From Coq Require Import List String Lia Permutation.
From TV Require Import Py.Prelude Model.ImplExec Model.SpecExec Model.Async Proofs.AsyncProofs
     Proofs.ExecRefine Proofs.AsyncBridge Proofs.ExecCalls.

Section C08.
Variable oracle : site -> string -> string -> pyval -> list (string * pyval) -> uret.  (* pure resolvers *)

(* whatever order the pending resolvers complete in, the result is the same and the same things
   are appended to the request's state (errors, invocations), up to their order *)
Theorem C08_schedule_independence picks p r evs :
  run_sched oracle picks p = Some (PDone r, evs) ->
  r = fst (run_seq oracle p) /\ Permutation evs (snd (run_seq oracle p)).
Proof. apply schedule_independence. Qed.

Theorem C08_any_two_schedules_agree picks1 picks2 p r1 r2 evs1 evs2 :
  run_sched oracle picks1 p = Some (PDone r1, evs1) ->
  run_sched oracle picks2 p = Some (PDone r2, evs2) ->
  r1 = r2 /\ Permutation evs1 evs2.
Proof. apply any_two_schedules_agree. Qed.

(* every resolver that was started has finished when the run ends; none is started more often
   than in the sequential run *)
Theorem C08_every_started_finishes picks p r evs :
  run_sched oracle picks p = Some (PDone r, evs) ->
  Permutation (starts_of evs) (finishes_of evs) /\
  Permutation (starts_of evs) (starts_of (snd (run_seq oracle p))).
Proof.
  intros H. destruct (schedule_independence oracle _ _ _ _ H) as [_ Hp].
  assert (Hs : Permutation (starts_of evs) (starts_of (snd (run_seq oracle p)))) by (apply Permutation_flat_map, Hp).
  split; [|exact Hs]. rewrite Hs, run_seq_balanced. apply Permutation_sym, Permutation_flat_map, Hp.
Qed.

(* termination under every schedule: no deadlock (a state that is not final has a blocked
   resolver whose release succeeds; states reached by start/release are normal) ... *)
Theorem C08_no_deadlock p : normal (fst (start p)) /\
  forall q, normal q -> (exists r, q = PDone r) \/
    (exists s, In s (blocked q) /\ exists q' ev, release oracle s q = Some (q', ev) /\ normal q').
Proof.
  split; [apply start_normal|]. intros q Hn.
  destruct (progress oracle q Hn) as [H|(s & Hs & q' & ev & Hr)]; [now left|right].
  exists s. split; [exact Hs|]. exists q', ev. split; [exact Hr|]. eapply release_normal; eauto.
Qed.

(* ... and every release strictly decreases `pending`, the number of resolvers that finish when
   everything still pending is completed at once, so from a state q no schedule is longer than
   pending q (the next theorem; that pending of a started program is at most the number of calls
   of its sequential run follows from start_complete and is not stated) *)
Theorem C08_every_release_decreases s q q' ev :
  release oracle s q = Some (q', ev) -> (pending oracle q' < pending oracle q)%nat.
Proof. apply release_decreases. Qed.

Theorem C08_schedules_are_bounded picks q acc q' evs :
  run_picks oracle picks q acc = Some (q', evs) ->
  (List.length picks + pending oracle q' <= pending oracle q)%nat.
Proof.
  revert q acc. induction picks as [|s picks IH]; intros q acc; cbn.
  - intros E; inversion E. lia.
  - destruct (release oracle s q) as [[q1 ev]|] eqn:Er; [|discriminate].
    intros E. specialize (IH _ _ E). pose proof (release_decreases _ _ _ _ _ Er). lia.
Qed.

End C08.

(* instantiated at the executor: same data, same errors and same resolver invocations (as
   multisets) under every schedule of every request, schema and configuration *)
Theorem C08_execute_schedule_independent sch doc vs (U : usercode) cfg op root picks1 picks2 r1 r2 evs1 evs2 :
  run_sched (resolver U) picks1 (a_execute_operation sch doc vs U cfg op root) = Some (PDone r1, evs1) ->
  run_sched (resolver U) picks2 (a_execute_operation sch doc vs U cfg op root) = Some (PDone r2, evs2) ->
  r1 = r2 /\ Permutation (errors_of evs1) (errors_of evs2) /\ Permutation (calls_of evs1) (calls_of evs2).
Proof.
  intros H1 H2. destruct (any_two_schedules_agree _ _ _ _ _ _ _ _ H1 H2) as [Hr Hp].
  split; [exact Hr|]. split; apply Permutation_flat_map, Hp.
Qed.

(* whichever sibling strategy is configured (fields of one object coerced concurrently or one after
   the other), the data is the same: both are the specification's (C01_data_refines_spec) *)
Theorem C08_config_data_eq sch doc vs U cfg1 cfg2 op root d o :
  spec_execute_operation sch doc vs U op root = Some (d, o) ->
  exists r1 r2, execute_operation sch doc vs U cfg1 op root = OVal r1 /\
                execute_operation sch doc vs U cfg2 op root = OVal r2 /\ r_data r1 = r_data r2.
Proof.
  intros H.
  destruct (execute_operation_refines_spec sch doc vs U cfg1 op root d o H) as (r1 & E1 & D1).
  destruct (execute_operation_refines_spec sch doc vs U cfg2 op root d o H) as (r2 & E2 & D2).
  exists r1, r2. repeat split; congruence.
Qed.

(* the executor written in the calculus, run with every coroutine completing at once, IS the
   state-passing executor C01-C03 are proved about: same data, same errors, same invocations *)
Theorem C08_calculus_executor_is_the_executor sch doc vs U cfg op root :
  response_of (fst (run_seq (resolver U) (a_execute_operation sch doc vs U cfg op root)))
              (snd (run_seq (resolver U) (a_execute_operation sch doc vs U cfg op root))) =
  execute_operation sch doc vs U cfg op root.
Proof. exact (execute_operation_bridge sch doc vs U cfg op root). Qed.

(* hence, under EVERY schedule of the resolver completions and EVERY configuration, a request for
   which the specification's algorithm has a result is answered with exactly that data, and with
   the errors and invocations of the sequential run up to their order *)
Theorem C08_every_schedule_and_configuration_gives_the_specified_data sch doc vs U cfg op root picks r evs d o :
  spec_execute_operation sch doc vs U op root = Some (d, o) ->
  run_sched (resolver U) picks (a_execute_operation sch doc vs U cfg op root) = Some (PDone r, evs) ->
  r = RVal d /\
  exists resp, execute_operation sch doc vs U cfg op root = OVal resp /\
               Permutation (errors_of evs) (r_errors resp) /\ Permutation (calls_of evs) (r_log resp).
Proof.
  intros Hspec Hrun.
  destruct (scheduled_response sch doc vs U cfg op root _ _ _ Hrun) as (ev0 & Hp & Hb).
  destruct (execute_operation_refines_spec sch doc vs U cfg op root d o Hspec) as (resp & Eresp & Hd).
  rewrite Eresp in Hb. destruct r; try discriminate. inversion Hb as [Hresp]. subst resp d.
  split; [reflexivity|]. eexists. split; [exact Eresp|]. split; apply Permutation_flat_map, Hp.
Qed.

(* "none is started twice": under EVERY schedule of the resolver completions and every configuration, the resolver
   invocations of a request are at pairwise different response paths *)
Theorem C08_no_resolver_called_twice sch doc vs U cfg op root picks d evs :
  run_sched (resolver U) picks (a_execute_operation sch doc vs U cfg op root) = Some (PDone (RVal d), evs) ->
  NoDup (rsites (calls_of evs)).
Proof.
  intros Hrun. destruct (scheduled_response sch doc vs U cfg op root _ _ _ Hrun) as (ev0 & Hp & Hb).
  eapply Permutation_NoDup; [apply Permutation_sym, Permutation_flat_map, Permutation_flat_map, Hp|].
  exact (execute_operation_calls_once sch doc vs U cfg op root _ (eq_sym Hb)).
Qed.

Print Assumptions C08_calculus_executor_is_the_executor.
Print Assumptions C08_every_schedule_and_configuration_gives_the_specified_data.
Print Assumptions C08_config_data_eq.
Print Assumptions C08_schedule_independence.
Print Assumptions C08_any_two_schedules_agree.
Print Assumptions C08_every_started_finishes.
Print Assumptions C08_no_deadlock.
Print Assumptions C08_every_release_decreases.
Print Assumptions C08_schedules_are_bounded.
Print Assumptions C08_execute_schedule_independent.
Print Assumptions C08_no_resolver_called_twice.
