(* C07 — documents breaking a supported validation rule are refused, nothing runs.
   The statements, with two worked examples.  Proved (for every schema, document, user code, configuration): whenever the
   validation walk reports an error or a rule raises, the response has `data: null`, a non-empty
   `errors`, and NO user code is invoked (the executor is not reached); the uniqueness rules are
   complete (a repeated operation / fragment / variable / argument / directive / input-field name
   is always reported, wherever the list sits); the fragment-cycle rule reports nothing EXACTLY for
   acyclic graphs (both directions, for every graph), a cyclic graph puts the walk in a refusing
   state and no later rule undoes a refusal; the other rules are stated exact below, each against a predicate
   over the engine's own lookups and records (Proofs/ValidateTree.v, ValidateSpreads.v, ValidateVars.v,
   SingleRootSpreads.v), and a document violating one of them is not accepted.
   PARTIAL: `a document violating a supported rule as Model/SpecValidate.v states it -> impl_validate reports`
   is not proved for all documents (the two recorded findings refute it as it stands, Properties/C07Findings.v);
   it is decided per rewritten document by the check (specification verdict inside Coq vs the real engine),
   and the implementation model is tied to the engine by comparing error sets. *)
From Coq Require Import ZArith List String Bool.
From TV Require Import Py.Prelude Model.Schema Model.ImplExec Model.Envelope
     Model.ImplValidate Model.SpecValidate Model.RunValidate Proofs.ValidateProofs Proofs.ValidateRules Proofs.ValidateValues Proofs.ValidateSites Proofs.ValidateWalk Proofs.ValidateTree Proofs.SingleRoot Proofs.ValidateSpreads Proofs.ValidateScopes Proofs.ValidateVars Proofs.ValidatePure Proofs.SingleRootSpreads Proofs.FieldLookup
     Gen.Wiring_gen Proofs.Wiring.
Import ListNotations.

Open Scope list_scope.

Theorem C07_refused_runs_nothing {A} (coercer : gerr -> A) V U cfg doc opname raw root :
  impl_validate V doc <> VErrors [] ->
  let r := validate_and_execute coercer V U cfg doc opname raw root in
  e_data A r = PNone /\ e_errors A r <> None /\ e_log A r = [].
Proof.
  unfold validate_and_execute, parsed_of.
  destruct (impl_validate V doc) as [|es].
  - repeat split; discriminate.
  - destruct es as [|e es]; [contradiction|]. repeat split; discriminate.
Qed.

(* completeness of the uniqueness rules *)
Theorem C07_repeated_operation_name_reported doc :
  r_operation_names doc = false -> operation_name_errors (operations doc) <> [].
Proof. intros H E. apply operation_names_rule in E. congruence. Qed.
Theorem C07_repeated_fragment_name_reported doc :
  r_fragment_names doc = false -> fragment_name_errors (fragments doc) <> [].
Proof. intros H E. apply fragment_names_rule in E. congruence. Qed.
Theorem C07_repeated_variable_reported vds :
  nodupb (map v_name vds) = false -> uniq_errors "variable-uniqueness" v_name v_loc None vds <> [].
Proof. intros H E. apply uniq_errors_nodupb in E. congruence. Qed.
Theorem C07_repeated_argument_reported path args :
  nodupb (map a_name args) = false -> uniq_errors "argument-uniqueness" a_name a_loc path args <> [].
Proof. intros H E. apply uniq_errors_nodupb in E. congruence. Qed.
Theorem C07_repeated_directive_reported path ds :
  nodupb (map d_name ds) = false -> uniq_errors "directives-are-unique-per-location" d_name d_loc path ds <> [].
Proof. intros H E. apply uniq_errors_nodupb in E. congruence. Qed.
Theorem C07_repeated_input_field_reported path (fields : list (string * lit)) :
  nodupb (map fst fields) = false ->
  uniq_errors "input-object-field-uniqueness" fst (fun kv => lit_loc (snd kv)) path fields <> [].
Proof. intros H E. apply uniq_errors_nodupb in E. congruence. Qed.

(* tie to the current source (regenerated on every run): every rule the project documents as
   supported is registered in RULE_SET and invoked from the walk, at exactly the sites the model
   transcribes, and only the cycle rule aborts *)
Theorem C07_source_invokes_every_supported_rule :
  src_call_sites = model_call_sites /\ map fst (filter snd src_rule_set) = model_aborting_rules /\
  forallb (fun r => existsb (fun kv => String.eqb (fst kv) r) src_rule_set &&
                    existsb (fun fr => String.eqb (snd fr) r) src_call_sites) supported_rules = true.
Proof. exact (conj call_sites_are_the_models (conj aborting_rules_are_the_models every_supported_rule_is_registered_and_invoked)). Qed.

(* a cyclic fragment graph is always reported: the rule (with distinct fragment names -- repeated names
   are reported by their own rule) answers Some [] exactly for acyclic graphs;
   emitting its verdict puts the walk in a refusing state, and no later rule can undo that *)
Theorem C07_cycle_rule_exact frs :
  NoDup (map fr_name frs) -> (cycle_rule frs = Some [] <-> acyclic frs).
Proof. exact (cycle_rule_exact frs). Qed.

Theorem C07_fragment_cycle_refuses frs st :
  NoDup (map fr_name frs) -> ~ acyclic frs -> aborted st = false ->
  refusing (emit true (cycle_rule frs) st).
Proof. exact (cycle_emit_refuses frs st). Qed.

Theorem C07_refusal_is_never_undone b r st : refusing st -> refusing (emit b r st).
Proof. exact (emit_keeps b r st). Qed.

(* non-vacuity: a cycle closed through a nested selection *)
Definition FR (n : string) (sels : list selection) : fragment :=
  {| fr_name := n; fr_type := "Query"; fr_dirs := []; fr_sels := sels; fr_loc := (1, 1)%Z |}.
Definition cyc : list fragment :=
  [FR "A" [SField (1, 1)%Z None "x" [] [] [SSpread (1, 1)%Z "B" []]]; FR "B" [SInline (1, 1)%Z None [] [SSpread (1, 1)%Z "A" []]]].
Example C07_cycle_reported : NoDup (map fr_name cyc) /\ cycle_rule cyc <> Some [].
Proof. split; [repeat constructor; cbn; intuition discriminate| discriminate]. Qed.

(* three more rules proved exact for every schema and document (Proofs/ValidateRules.v); here the
   direction C07 needs: what the specification forbids is reported.  The spread list the last two
   read from the walk's shared context is exactly the document's (C06_rules_read_the_documents_spreads). *)
Theorem C07_second_anonymous_operation_reported doc :
  r_lone_anonymous doc = false -> lone_anonymous_errors (operations doc) <> [].
Proof. intros H E. apply lone_anonymous_exact_doc in E. congruence. Qed.
Theorem C07_unused_fragment_reported V doc :
  r_fragments_used V doc = false -> must_be_used_errors (fragments doc) (frag_spreads (walked V doc)) <> [].
Proof. intros H E. apply must_be_used_exact in E. congruence. Qed.
Theorem C07_undefined_spread_target_reported V doc :
  r_spread_targets V doc = false -> spread_target_errors (fragments doc) (frag_spreads (walked V doc)) <> [].
Proof. intros H E. apply spread_targets_exact in E. congruence. Qed.

(* 5.6.1 values of correct type, exact at every depth: a literal the specification rejects for its expected
   type makes the rule raise or append at least one error, and the walk then refuses the document *)
Theorem C07_incorrect_value_reported V
  (Hin : forall n ifs f, vfind_type V n = Some (DInput ifs) -> In f ifs -> input_ty V (in_type f))
  v path argloc c acc :
  input_ty V c -> value_ok V v c = false ->
  vct V path argloc v c acc = None \/ exists e es, vct V path argloc v c acc = Some (acc ++ e :: es).
Proof. intros Hc H. exact (proj2 (vct_exact V Hin v path argloc c acc Hc) H). Qed.

Theorem C07_incorrect_arguments_refuse V
  (Hin : forall n ifs f, vfind_type V n = Some (DInput ifs) -> In f ifs -> input_ty V (in_type f))
  path ds args st :
  (forall d, In d ds -> input_ty V (in_type d)) -> args_ok V ds args = false -> aborted st = false ->
  refusing (emit false (vct_arguments V path (Some ds) args) st).
Proof.
  intros Hd H Ha. apply flagged_values_refuse; [exact Ha|]. exact (proj2 (vct_arguments_exact V Hin path ds args Hd) H).
Qed.

(* the per-site rules, each exact (Proofs/ValidateSites.v): what the specification forbids at a site is reported *)
Theorem C07_unknown_argument_reported path ds args :
  forallb (fun a => existsb (fun d => String.eqb (in_name d) (a_name a)) ds) args = false ->
  argument_names_errors path (Some ds) args <> [].
Proof. intros H E. apply argument_names_exact in E. congruence. Qed.
Theorem C07_missing_required_argument_reported path ds l args :
  forallb (fun d => negb (is_non_null (in_type d)) || match in_default d with Some _ => true | None => false end ||
                    existsb (fun a => String.eqb (a_name a) (in_name d)) args) ds = false ->
  required_arguments_errors path (Some ds) l args <> [].
Proof. intros H E. apply required_arguments_exact in E. congruence. Qed.
Theorem C07_misplaced_directive_reported V path where_ l ds :
  forallb (fun d => match s_directive V (d_name d) with Some dd => mem_str where_ (dd_locs dd) | None => true end) ds = false ->
  valid_locations_errors V path where_ l ds <> [].
Proof. intros H E. apply valid_locations_exact in E. congruence. Qed.

(* whatever any rule reports or raises, at any point of the walk, the document is not accepted: acceptance is the
   conjunction of all rules being quiet (C06_acceptance_decomposed), so one flagged rule suffices *)
Theorem C07_any_flagged_rule_refuses V doc :
  accepted V doc = true -> quiet (walk_phase_errs V doc) /\ quiet (cycle_rule (fragments doc)).
Proof. intros H. apply accepted_iff_clean, validate_clean_iff in H. tauto. Qed.

(* COMPLETENESS over the whole document (Proofs/ValidateTree.v): a document with ANY node -- at any depth,
   in an operation or a fragment -- violating one of the specification's node predicates (argument names /
   uniqueness / required arguments, values of correct type, input-field uniqueness, directives defined /
   unique / in valid locations and their argument rules, field exists, leaf selection, type conditions,
   variable definitions), or a cyclic fragment graph, a repeated operation or fragment name, a second
   anonymous operation, a spread of an undefined fragment, an unused fragment, is NOT accepted. *)
Theorem C07_violating_document_refused V
  (Hin : forall n ifs f, vfind_type V n = Some (DInput ifs) -> In f ifs -> input_ty V (in_type f))
  (Hfields : forall scope name f d, vfind_field V scope name = Some f -> In d (fd_args f) -> input_ty V (in_type d))
  (Hdirs : forall n dd d, vfind_directive V n = Some dd -> In d (dd_args dd) -> input_ty V (in_type d)) doc :
  doc_walk_ok V doc = false \/ ~ acyclic (fragments doc) \/ r_operation_names doc = false \/ r_lone_anonymous doc = false \/
  r_fragment_names doc = false \/ r_spread_targets V doc = false \/ r_fragments_used V doc = false ->
  accepted V doc = false.
Proof.
  intros H. apply not_true_is_false. intros E. apply (accepted_characterised V Hin Hfields Hdirs doc) in E.
  destruct E as (E0 & E1 & E2 & E3 & E4 & E5 & E6 & _).
  destruct H as [H|[H|[H|[H|[H|[H|H]]]]]]; try congruence.
Qed.

(* 5.2.3.1 single root field: a subscription reaching two different response keys at the root through fields
   and inline fragments (at any nesting) is reported by the rule, and the document is not accepted *)
Theorem C07_two_root_keys_reported doc o :
  In o (operations doc) -> o_kind o = OpSubscription -> two_root_keys (o_sels o) -> single_root_rule doc <> Some [].
Proof. exact (single_root_rule_refuses doc o). Qed.

Theorem C07_two_root_keys_refused V doc o :
  In o (operations doc) -> o_kind o = OpSubscription -> two_root_keys (o_sels o) -> accepted V doc = false.
Proof. intros Hin Hk Htwo. exact (two_reachable_keys_refused V doc o Hin Hk (two_root_two_reachable _ _ Htwo)). Qed.

Example C07_two_root_keys_example :
  two_root_keys [SField (1,1)%Z (Some "ka") "su" [] [] [];
                 SInline (1,2)%Z (Some "Subscription") [] [SInline (1,3)%Z None [] [SField (1,4)%Z None "kb" [] [] []]]].
Proof. exists "ka", "kb". repeat split; [discriminate|cbn; auto|cbn; auto]. Qed.

(* 5.5.2.3 fragment spread is possible, EXACT: the rule reports nothing exactly when every inline fragment and every
   spread of a defined fragment -- wherever it sits: operation, nested selection, fragment -- can apply in the type scope
   it is written in (`applies_in`, which for a type condition is the specification's `applies`: both composite =>
   possible types intersect); the entries are a pure function of the document (scopes handed down the tree) *)
Theorem C07_possible_spreads_rule_exact V doc :
  inline_possible_errors V (inlined_in (ValidateWalk.walked V doc)) ++
  spread_possible_errors V (fragments doc) (spreaded_in (ValidateWalk.walked V doc)) = [] <->
  (forall scope tc l, In (scope, (tc, l)) (doc_inl V doc) -> applies_in V scope tc = true) /\
  (forall scope n l p f, In (scope, (n, l, p)) (doc_spr V doc) -> find_fragment (fragments doc) n = Some f ->
                         applies_in V scope (Some (fr_type f)) = true).
Proof. exact (possible_spreads_exact V doc). Qed.

Theorem C07_applies_is_the_specifications V scope t : applies_in V scope (Some t) = applies V scope t.
Proof. exact (applies_in_spec V scope t). Qed.

Theorem C07_impossible_inline_fragment_refused V doc scope tc l :
  In (scope, (tc, l)) (doc_inl V doc) -> applies_in V scope tc = false -> accepted V doc = false.
Proof.
  intros Hin Hno. apply not_true_is_false. intros E. apply accepted_possible_spreads, (possible_spreads_exact V doc) in E.
  rewrite (proj1 E scope tc l Hin) in Hno. discriminate.
Qed.

Theorem C07_impossible_fragment_spread_refused V doc scope n l p f :
  In (scope, (n, l, p)) (doc_spr V doc) -> find_fragment (fragments doc) n = Some f ->
  applies_in V scope (Some (fr_type f)) = false -> accepted V doc = false.
Proof.
  intros Hin Hf Hno. apply not_true_is_false. intros E. apply accepted_possible_spreads, (possible_spreads_exact V doc) in E.
  rewrite (proj2 E scope n l p f Hin Hf) in Hno. discriminate.
Qed.

(* The three variable rules, EXACT (Proofs/ValidateVars.v).  An operation "sees" what is recorded in its own selection
   tree and in every fragment reachable through spreads (`op_sees`: the engine's traversal has no visited set, it returns
   exactly when it terminates and then membership is reachability); the records are a pure function of the document
   (Proofs/ValidateScopes.v, `books_ctx`). *)
Theorem C07_uses_defined_rule_exact st ops :
  uses_defined_rule st ops = Some [] <->
  forall o, In o ops ->
    scope_collect st si_used o <> None /\
    forall n l, op_sees st si_used o (n, l) -> exists vd, In vd (o_vars o) /\ v_name vd = n.
Proof. exact (uses_defined_exact st ops). Qed.

Theorem C07_variables_used_rule_exact st ops :
  variables_used_rule st ops = Some [] <->
  forall o, In o ops ->
    scope_collect st si_used o <> None /\
    forall vd, In vd (o_vars o) -> exists l, op_sees st si_used o (v_name vd, l).
Proof. exact (variables_used_exact st ops). Qed.

Theorem C07_usages_allowed_rule_exact V st ops :
  usages_allowed_rule V st ops = Some [] <->
  forall o, In o ops ->
    scope_collect st si_args o <> None /\
    forall u a vd, op_sees st si_args o u -> schema_argument V u = Some a ->
                   find (fun vd0 => String.eqb (v_name vd0) (au_var u)) (o_vars o) = Some vd -> usage_ok a vd = true.
Proof. exact (usages_allowed_exact V st ops). Qed.

(* ... hence a document using an undeclared variable, declaring an unused one, or passing a variable where its type does
   not fit -- in the operation itself, in a nested selection, in a directive argument or in a fragment reached through
   any chain of spreads -- is not accepted *)
Theorem C07_undeclared_variable_refused V
  (Hin : forall n ifs f, vfind_type V n = Some (DInput ifs) -> In f ifs -> input_ty V (in_type f))
  (Hfields : forall scope name f d, vfind_field V scope name = Some f -> In d (fd_args f) -> input_ty V (in_type d))
  (Hdirs : forall n dd d, vfind_directive V n = Some dd -> In d (dd_args dd) -> input_ty V (in_type d)) doc o n l :
  In o (operations doc) -> op_sees (books_ctx V doc) si_used o (n, l) ->
  (forall vd, In vd (o_vars o) -> v_name vd <> n) -> accepted V doc = false.
Proof. exact (undeclared_variable_refused V doc o n l). Qed.

Theorem C07_unused_variable_refused V
  (Hin : forall n ifs f, vfind_type V n = Some (DInput ifs) -> In f ifs -> input_ty V (in_type f))
  (Hfields : forall scope name f d, vfind_field V scope name = Some f -> In d (fd_args f) -> input_ty V (in_type d))
  (Hdirs : forall n dd d, vfind_directive V n = Some dd -> In d (dd_args dd) -> input_ty V (in_type d)) doc o vd :
  In o (operations doc) -> In vd (o_vars o) ->
  (forall l, ~ op_sees (books_ctx V doc) si_used o (v_name vd, l)) -> accepted V doc = false.
Proof. exact (unused_variable_refused V doc o vd). Qed.

Theorem C07_disallowed_variable_usage_refused V
  (Hin : forall n ifs f, vfind_type V n = Some (DInput ifs) -> In f ifs -> input_ty V (in_type f))
  (Hfields : forall scope name f d, vfind_field V scope name = Some f -> In d (fd_args f) -> input_ty V (in_type d))
  (Hdirs : forall n dd d, vfind_directive V n = Some dd -> In d (dd_args dd) -> input_ty V (in_type d)) doc o u a vd :
  In o (operations doc) -> op_sees (books_ctx V doc) si_args o u -> schema_argument V u = Some a ->
  find (fun vd0 => String.eqb (v_name vd0) (au_var u)) (o_vars o) = Some vd -> usage_ok a vd = false ->
  accepted V doc = false.
Proof. exact (disallowed_usage_refused V doc o u a vd). Qed.

(* 5.2.3.1 single root field, EXACT through fragment spreads: the engine's traversal (with its visited set; cyclic spread
   graphs included) collects every response key reachable through inline fragments and any chain of spreads, so a
   subscription from whose root two DIFFERENT response keys are reachable is reported, and the document is not accepted
   (the converse is C06_one_root_key_written_many_times_accepted) *)
Theorem C07_every_reachable_root_key_is_collected frs fuel sels v' k' :
  response_keys fuel frs sels [] [] = Some (v', k') -> forall k, reachable_key frs sels k -> In k k'.
Proof. exact (response_keys_complete frs fuel sels v' k'). Qed.

Theorem C07_two_reachable_root_keys_reported doc o :
  In o (operations doc) -> o_kind o = OpSubscription -> two_reachable_keys (fragments doc) (o_sels o) ->
  single_root_rule doc <> Some [].
Proof. exact (single_root_rule_refuses_reachable doc o). Qed.

Theorem C07_two_reachable_root_keys_refused V doc o :
  In o (operations doc) -> o_kind o = OpSubscription -> two_reachable_keys (fragments doc) (o_sels o) -> accepted V doc = false.
Proof. exact (two_reachable_keys_refused V doc o). Qed.

(* the field lookup the node predicates use is the specification's (meta-fields by name, then the declared fields), for
   schemas whose declared field names do not begin with two underscores and whose query root is an object type -- EXCEPT
   `__typename` in an interface scope (recorded finding C07-interface-typename-arguments) *)
Theorem C07_field_lookup_is_the_specifications V p name :
  (forall ifs fs, vfind_type V p = Some (DObject ifs fs) -> plain_names fs) ->
  (forall fs, vfind_type V p = Some (DInterface fs) -> plain_names fs) ->
  (String.eqb p (query_type (vs V)) = true -> exists ifs fs, vfind_type V p = Some (DObject ifs fs)) ->
  (is_interface V p = true -> name <> "__typename"%string) ->
  vfind_field V (Some p) name = s_field V (Some p) name.
Proof. intros Hobj _. exact (field_lookup_agrees V p name Hobj). Qed.

Print Assumptions C07_source_invokes_every_supported_rule.
Print Assumptions C07_cycle_rule_exact.
Print Assumptions C07_fragment_cycle_refuses.
Print Assumptions C07_refusal_is_never_undone.
Print Assumptions C07_refused_runs_nothing.
Print Assumptions C07_repeated_operation_name_reported.
Print Assumptions C07_repeated_fragment_name_reported.
Print Assumptions C07_repeated_variable_reported.
Print Assumptions C07_repeated_argument_reported.
Print Assumptions C07_repeated_directive_reported.
Print Assumptions C07_repeated_input_field_reported.
Print Assumptions C07_second_anonymous_operation_reported.
Print Assumptions C07_unused_fragment_reported.
Print Assumptions C07_undefined_spread_target_reported.
Print Assumptions C07_incorrect_value_reported.
Print Assumptions C07_incorrect_arguments_refuse.
Print Assumptions C07_unknown_argument_reported.
Print Assumptions C07_missing_required_argument_reported.
Print Assumptions C07_misplaced_directive_reported.
Print Assumptions C07_any_flagged_rule_refuses.
Print Assumptions C07_violating_document_refused.
Print Assumptions C07_two_root_keys_reported.
Print Assumptions C07_two_root_keys_refused.
Print Assumptions C07_possible_spreads_rule_exact.
Print Assumptions C07_impossible_inline_fragment_refused.
Print Assumptions C07_impossible_fragment_spread_refused.
Print Assumptions C07_uses_defined_rule_exact.
Print Assumptions C07_variables_used_rule_exact.
Print Assumptions C07_usages_allowed_rule_exact.
Print Assumptions C07_undeclared_variable_refused.
Print Assumptions C07_unused_variable_refused.
Print Assumptions C07_disallowed_variable_usage_refused.
Print Assumptions C07_every_reachable_root_key_is_collected.
Print Assumptions C07_two_reachable_root_keys_reported.
Print Assumptions C07_two_reachable_root_keys_refused.
Print Assumptions C07_field_lookup_is_the_specifications.
