(* C13 — directive hooks wrap their target exactly once, nested in declaration order.
   Statements only.  Model/Directives.v: wraps_with_directives as written (a reversed loop building
   partial applications), for ARBITRARY hook implementations taking the next stage as a
   continuation; then the tagging hooks of the check over a universe of input types annotated with
   the directive instances attached to scalars, input objects, input fields and arguments.
   PARTIAL: the wiring of each type's bake() (which hook list is attached to which coercer) is
   transcribed, and tied to the code by the correspondence check on generated schemas; enum-value /
   enum-type output hooks are exercised by the check only.
   Output side (Model/DirectivesOut.v, Proofs/DirectiveOutProofs.v): object / list / leaf positions annotated with
   their directive instances; what is executed (hooks logging in order) equals the pure view for every annotated
   type and value, and a type's on_pre_output_coercion hooks meet EVERY value at a position of that type, null
   results and null list items included; an abstract position (Proofs/DirectiveAbstract.v) runs the abstract type's
   hooks, then the runtime object type's: the object run over the concatenated instances. *)
From Coq Require Import ZArith List String.
From TV Require Import Model.Directives Model.DirectivesOut Proofs.DirectiveProofs Proofs.DirectiveOutProofs Proofs.DirectiveAbstract.
Import ListNotations.

Open Scope list_scope.

(* several directives on one element nest in declaration order, first declared outermost; a
   directive without the hook is skipped; this holds for every hook implementation *)
Theorem C13_first_declared_outermost V E (impl : dinst -> string -> stage V E -> stage V E) ds h base :
  wraps_with_directives V E impl ds h base =
  fold_right (fun d f => impl d h f) base (filter (has_hook h) ds).
Proof. exact (wraps_eq_nest V E impl ds h base). Qed.

(* query-side field directives wrap the schema-side ones, which wrap the resolver *)
Theorem C13_query_wraps_schema V E (impl : dinst -> string -> stage V E -> stage V E) query_dirs schema_dirs h resolver :
  wraps_with_directives V E impl query_dirs h (wraps_with_directives V E impl schema_dirs h resolver) =
  fold_right (fun d f => impl d h f) resolver (filter (has_hook h) (query_dirs ++ schema_dirs)).
Proof. exact (wraps_twice V E impl query_dirs schema_dirs h resolver). Qed.

(* each applicable hook of each instance is invoked exactly once per value, in declaration order,
   with that instance's argument; what a hook returns is what the next one sees *)
Theorem C13_each_hook_once_in_order ds h v log :
  run_hooks ds h v log =
  (fold_left (fun v d => tag (di_name d) v) (filter (has_hook h) ds) v,
   log ++ map (fun d => (di_name d, h, di_arg d)) (filter (has_hook h) ds)).
Proof. exact (run_hooks_spec ds h v log). Qed.

(* the same hooks run identically whether an input arrives as a literal or through variables (at
   any depth: whole argument, list item, input field), including the one asymmetry of the code:
   type-level hooks are skipped on the literal path for variable nodes because they ran when the
   variable was coerced, while input-field hooks are not *)
Theorem C13_literal_eq_variable_hooks raw vars arg_dirs t q :
  well_placed raw vars t q ->
  argument_value vars arg_dirs t q = apply_tags arg_dirs ARG_EXEC (input_coerce t (subst raw q)).
Proof. intros H. unfold argument_value. now rewrite (literal_coerce_is_input_coerce raw vars q t H). Qed.

(* non-vacuity *)
Definition D (n : string) (hs : list string) : dinst := {| di_name := n; di_hooks := hs; di_arg := 0 |}.
Definition T0 := IScalar [D "t1" [POST_INPUT]; D "t2" [PRE_OUTPUT]; D "t3" [POST_INPUT]].
Definition In0 := IObj [D "o" [POST_INPUT]] [("f", [D "i" [POST_INPUT]], T0); ("g", [], IList T0)].
Example C13_example :
  let raw := fun n => if String.eqb n "v" then TLeaf "w" else TLst [TLeaf "x"] in
  let vars := fun n => if String.eqb n "v" then input_coerce T0 (raw n) else input_coerce (IList T0) (raw n) in
  well_placed raw vars In0 (QObj [("f", QVar "v"); ("g", QVar "l")]) /\
  argument_value vars [D "a" [ARG_EXEC]] In0 (QObj [("f", QVar "v"); ("g", QVar "l")]) =
  TObj [("f", TLeaf "a(o(i(t3(t1(w)))))"); ("g", TLst [TLeaf "a(o(t3(t1(x))))"])].
Proof. repeat split. Qed.

(* output side: executing the coercers of an annotated output type, hooks logging their invocations, gives the
   value with the applicable tags and exactly the invocations of the pure view, in order *)
Theorem C13_output_hooks_as_executed t v log :
  output_run t v log = (output_coerce t v, log ++ output_log t v).
Proof. exact (output_run_spec t v log). Qed.

(* each applicable instance of the item type is invoked once per list item, null items included *)
Theorem C13_list_items_each_once ds xs :
  output_log (OListOf (OScalar ds)) (TLst xs) = flat_map (fun _ => events ds PRE_OUTPUT) xs.
Proof. exact (list_items_each_once ds xs). Qed.

Theorem C13_list_items_invocation_count ds xs :
  List.length (output_log (OListOf (OScalar ds)) (TLst xs)) =
  (List.length xs * List.length (filter (has_hook PRE_OUTPUT) ds))%nat.
Proof. exact (list_items_invocation_count ds xs). Qed.

Theorem C13_null_meets_the_type_hooks ds fields :
  output_log (OScalar ds) TNull = events ds PRE_OUTPUT /\
  output_log (OObject ds fields) TNull = events ds PRE_OUTPUT /\
  output_coerce (OObject ds fields) TNull = TNull /\ output_coerce (OScalar ds) TNull = TNull.
Proof. exact (null_meets_the_type_hooks ds fields). Qed.

Example C13_output_example :
  let Tg := OScalar [D "t1" [PRE_OUTPUT]; D "t2" [POST_INPUT]] in
  let Out := OObject [D "o" [PRE_OUTPUT]] [("v", [D "f" [FIELD_EXEC]], Tg); ("vs", [], OListOf Tg)] in
  output_run (OListOf Out) (TLst [TObj [("v", TLeaf "s"); ("vs", TLst [TLeaf "a"; TNull])]; TNull]) [] =
  (TLst [TObj [("v", TLeaf "t1(f(o(s)))"); ("vs", TLst [TLeaf "t1(o(a))"; TNull])]; TNull],
   [("o", PRE_OUTPUT, 0%Z); ("t1", PRE_OUTPUT, 0%Z); ("t1", PRE_OUTPUT, 0%Z); ("t1", PRE_OUTPUT, 0%Z); ("o", PRE_OUTPUT, 0%Z)]).
Proof. reflexivity. Qed.

(* ABSTRACT output positions (interface / union): the abstract type's hooks, then the runtime object
   type's hooks, then the object's fields -- exactly the object run over the concatenated instances;
   each applicable instance of either type is invoked once for the value, the abstract type's first *)
Theorem C13_abstract_position_is_object_run ads ods fields v log :
  abstract_run ads ods fields v log = output_run (OObject (ads ++ ods) fields) v log.
Proof. exact (abstract_run_is_object_run ads ods fields v log). Qed.

Theorem C13_abstract_position_hooks_once_in_order ads ods fields v log :
  exists rest, snd (abstract_run ads ods fields v log) = log ++ events ads PRE_OUTPUT ++ events ods PRE_OUTPUT ++ rest.
Proof. exact (abstract_position_log ads ods fields v log). Qed.

Print Assumptions C13_first_declared_outermost.
Print Assumptions C13_query_wraps_schema.
Print Assumptions C13_each_hook_once_in_order.
Print Assumptions C13_literal_eq_variable_hooks.
Print Assumptions C13_output_hooks_as_executed.
Print Assumptions C13_list_items_each_once.
Print Assumptions C13_list_items_invocation_count.
Print Assumptions C13_null_meets_the_type_hooks.
Print Assumptions C13_abstract_position_is_object_run.
Print Assumptions C13_abstract_position_hooks_once_in_order.
