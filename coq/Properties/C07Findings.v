(* C07 — the two RECORDED FINDINGS as theorems about the faithful implementation model (known_findings.json):
   the full statement "a document violating a supported rule is refused" is FALSE of the model -- and of the engine,
   where the same requests are the replays -- in the two recorded regions, each with a witness checked by computation. *)
From Coq Require Import ZArith List String.
From TV Require Import Py.Prelude Model.Schema Model.ImplValidate Model.SpecValidate.
Import ListNotations.

Definition no_scalars : string -> option scalar_ops := fun _ => None.
Definition L0 : loc := (1, 1)%Z.

(* schema: input In { a: Int }   interface Named { name: String }   type Dog implements Named { name: String }
           type Query { echo(i: In): Int  named: Named } *)
Definition f_schema : schema :=
  {| types := [("Int", DScalar); ("String", DScalar); ("Boolean", DScalar);
               ("In", DInput [{| in_name := "a"; in_type := TNamed "Int"; in_default := None |}]);
               ("Named", DInterface [{| fd_name := "name"; fd_type := TNamed "String"; fd_args := [] |}]);
               ("Dog", DObject ["Named"] [{| fd_name := "name"; fd_type := TNamed "String"; fd_args := [] |}]);
               ("Query", DObject [] [{| fd_name := "echo"; fd_type := TNamed "Int";
                                        fd_args := [{| in_name := "i"; in_type := TNamed "In"; in_default := None |}] |};
                                     {| fd_name := "named"; fd_type := TNamed "Named"; fd_args := [] |}])];
     query_type := "Query"; mutation_type := None; subscription_type := None; scalars := no_scalars |}.
Definition f_V : vschema := {| vs := f_schema; vs_dirs := [] |}.

(* query ($s: String) { echo(i: {a: $s}) } *)
Definition doc_nested : document :=
  {| operations := [{| o_kind := OpQuery; o_name := None;
                       o_vars := [{| v_name := "s"; v_type := TNamed "String"; v_default := None; v_loc := L0 |}];
                       o_dirs := [];
                       o_sels := [SField L0 None "echo" [{| a_name := "i"; a_value := LObj L0 [("a", LVar L0 "s")]; a_loc := L0 |}] [] []];
                       o_loc := L0 |}];
     fragments := [] |}.

(* { named { __typename(x: 1) } } *)
Definition doc_typename : document :=
  {| operations := [{| o_kind := OpQuery; o_name := None; o_vars := []; o_dirs := [];
                       o_sels := [SField L0 None "named" [] []
                                    [SField L0 None "__typename" [{| a_name := "x"; a_value := LInt L0 (PStr "1"); a_loc := L0 |}] [] []]];
                       o_loc := L0 |}];
     fragments := [] |}.

(* C07-nested-variable-usage: a String variable nested in an object literal at an Int position breaks rule 5.8.5
   (the specification's predicate is false) yet the document is accepted *)
Theorem C07_nested_variable_usage_refuted :
  r_usages_allowed f_V doc_nested = false /\ accepted f_V doc_nested = true /\
  (* the rule restricted to directly used variables -- the region of the finding -- holds *)
  r_usages_allowed_direct f_V doc_nested = true.
Proof. repeat split. Qed.

(* C07-interface-typename-arguments: an unknown argument on `__typename` in an interface scope breaks argument-names
   (the specification's predicate is false) yet the document is accepted *)
Theorem C07_interface_typename_arguments_refuted :
  r_argument_names f_V doc_typename = false /\ accepted f_V doc_typename = true /\
  r_argument_names_engine_lookup f_V doc_typename = true.
Proof. repeat split. Qed.

Print Assumptions C07_nested_variable_usage_refuted.
Print Assumptions C07_interface_typename_arguments_refuted.
