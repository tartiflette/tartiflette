(* C04 — variable values are coerced exactly as the specification prescribes.
   Statements only; proofs are in Proofs/InputRefine.v and Proofs/InputFacts.v.
   `coerce_variables` is the implementation model (coercer chains, accumulator merge loops,
   transcribed from coercers/variables.py and coercers/inputs), `spec_coerce_variables` the
   specification model (CoerceVariableValues by recursion on the declared type).  All
   statements hold for every schema (incl. ill-formed ones and arbitrary custom scalars),
   every list of variable definitions, every raw variables object and every fuel. *)
From Coq Require Import ZArith List String.
From TV Require Import Py.Prelude Model.Schema Model.ImplInput Model.SpecInput
  Proofs.InputRefine Proofs.InputFacts.
Import ListNotations.

Section C04.
Variable sch : schema.

(* the engine's coercer chain is CoerceValue *)
Theorem C04_input_coercer_refines_spec fuel t path v :
  get_input_coercer sch fuel t path v = spec_coerce sch fuel t path v.
Proof. exact (input_coercer_refines_spec sch fuel t path v). Qed.

(* same coerced map (absent <> null, defaults, wrapping, unknown/missing fields) or the same
   offending variables with the same errors *)
Theorem C04_coerce_variables_refines_spec fuel vds raw :
  coerce_variables sch fuel vds raw = spec_coerce_variables sch fuel vds raw.
Proof. exact (coerce_variables_refines_spec sch fuel vds raw). Qed.

(* every offending variable is reported by at least one error ... *)
Theorem C04_errors_complete fuel raw vds vals errs vd v e es :
  coerce_variables sch fuel vds raw = Ok (vals, errs) ->
  In vd vds -> spec_variable sch fuel vd raw = Ok (Some (v, e :: es)) ->
  In (v_name vd, e) errs.
Proof. rewrite C04_coerce_variables_refines_spec. apply errors_complete. Qed.

(* ... and no error is reported for a variable that did not fail *)
Theorem C04_errors_sound fuel raw vds vals errs n e :
  coerce_variables sch fuel vds raw = Ok (vals, errs) -> In (n, e) errs ->
  exists vd v es, In vd vds /\ v_name vd = n /\
                  spec_variable sch fuel vd raw = Ok (Some (v, es)) /\ In e es.
Proof. rewrite C04_coerce_variables_refines_spec. apply errors_sound. Qed.

(* a value is never delivered together with errors (per value, at every depth) *)
Theorem C04_value_xor_errors fuel t p v r :
  get_input_coercer sch fuel t p v = Ok r -> snd r <> [] -> fst r = PNone.
Proof. rewrite C04_input_coercer_refines_spec. apply spec_coerce_normal. Qed.

Theorem C04_extra_variables_ignored fuel vds raw raw' :
  (forall vd, In vd vds -> dict_get (v_name vd) raw = dict_get (v_name vd) raw') ->
  coerce_variables sch fuel vds raw = coerce_variables sch fuel vds raw'.
Proof. rewrite !C04_coerce_variables_refines_spec. apply extra_variables_ignored. Qed.

Theorem C04_absent_stays_absent fuel vd raw :
  dict_get (v_name vd) raw = None -> v_default vd = None -> is_non_null (v_type vd) = false ->
  variable_coercer sch fuel vd raw = Ok VUndefined.
Proof.
  intros. rewrite variable_coercer_refines, absent_stays_absent by assumption. reflexivity.
Qed.

Theorem C04_non_null_missing_or_null_refused fuel vd raw :
  is_non_null (v_type vd) = true -> v_default vd = None ->
  (dict_get (v_name vd) raw = None \/ dict_get (v_name vd) raw = Some PNone) ->
  exists e, variable_coercer sch fuel vd raw = Ok (VRes (PNone, [e])).
Proof.
  intros Hn Hd Hr. destruct (non_null_missing_or_null_refused sch fuel vd raw Hn Hd Hr) as [e He].
  exists e. rewrite variable_coercer_refines, He. reflexivity.
Qed.

Theorem C04_single_value_wrapped fuel t p v :
  is_none v = false -> (forall l, v <> PList l) ->
  get_input_coercer sch fuel (TList t) p v =
  bind (get_input_coercer sch fuel t p v) (fun r => Ok (wrap_single r)).
Proof. rewrite !C04_input_coercer_refines_spec. now apply single_value_wrapped. Qed.

End C04.

(* ---- non-vacuity: a schema with a self-recursive input object and defaulted fields ---- *)
Definition ex_scalars (n : string) : option scalar_ops :=
  if String.eqb n "Int" then
    Some {| s_input := fun v => match v with PInt _ => Ok v | _ => Raise TypeError end;
            s_literal := fun a => match a with PAst KIntValue (PInt z) => Ok (PInt z) | _ => Ok PUndef end;
            s_output := fun v => Ok v |}
  else None.
Definition ex_schema : schema :=
  {| types := [("Int", DScalar);
               ("In", DInput [ {| in_name := "a"; in_type := TNonNull (TNamed "Int"); in_default := None |};
                               {| in_name := "b"; in_type := TList (TList (TNamed "Int"));
                                  in_default := Some (LInt (0, 0)%Z (PInt 7)) |};
                               {| in_name := "rec"; in_type := TNamed "In"; in_default := None |} ])];
     query_type := "Query"; mutation_type := None; subscription_type := None; scalars := ex_scalars |}.
Definition ex_vd : var_def := {| v_name := "v"; v_type := TNonNull (TNamed "In"); v_default := None; v_loc := (1, 8)%Z |}.

Example C04_nonvacuous :
  (* accepted: default filled in, single value wrapped twice, recursion through "rec" *)
  coerce_variables ex_schema 10 [ex_vd]
    [("v", PDict [("a", PInt 1); ("rec", PDict [("a", PInt 2); ("b", PInt 3)])]); ("extra", PInt 0)]
  = Ok ([("v", PDict [("a", PInt 1); ("b", PList [PList [PInt 7]]);
                      ("rec", PDict [("a", PInt 2); ("b", PList [PList [PInt 3]])])])], [])
  /\
  (* refused: unknown field and missing required field, both reported against $v *)
  coerce_variables ex_schema 10 [ex_vd] [("v", PDict [("zz", PInt 1)])]
  = Ok ([], [("v", (EFieldRequired, [KName "a"])); ("v", (EUnknownField, []))]).
Proof. split; reflexivity. Qed.

Print Assumptions C04_input_coercer_refines_spec.
Print Assumptions C04_coerce_variables_refines_spec.
Print Assumptions C04_errors_complete.
Print Assumptions C04_errors_sound.
Print Assumptions C04_value_xor_errors.
Print Assumptions C04_extra_variables_ignored.
Print Assumptions C04_absent_stays_absent.
Print Assumptions C04_non_null_missing_or_null_refused.
Print Assumptions C04_single_value_wrapped.
