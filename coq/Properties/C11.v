(* C11 — introspection describes exactly the schema that was supplied.
   Statements only.  Model/Introspect.v computes, from the schema object the build model
   (Model/SchemaBuild.v: definitions, merged extensions, built-ins) produces, what `__schema` and
   `__type` report.  Proved for every SDL model that builds: the reported type names are exactly
   the declared ones plus the engine's built-in scalars (nothing missing, nothing extra, no meta
   type); `__type(name:)` returns the entry of `__schema.types` and null for unknown names;
   `fields(includeDeprecated: false)` drops exactly the deprecated fields (enum values carry their isDeprecated flag;
   filtering them is not modelled); the possibleTypes of an interface are
   exactly the objects declaring it (extensions included); the reported fields of a type are
   exactly its declared (and extension-added) fields that are neither injected `__` fields nor
   hidden by @nonIntrospectable.
   PARTIAL: the lark grammar, the lark -> AST transformers, file reading / globbing and the
   executor walking the schema objects are exercised by the correspondence check only (model ->
   SDL text supplied four ways -> real engine -> introspection -> compared inside Coq). *)
From Coq Require Import List String.
From TV Require Import Model.Schema Model.SchemaBuild Model.Introspect Proofs.IntrospectProofs Proofs.IntrospectExt.
Import ListNotations.

Open Scope list_scope.

Theorem C11_types_exact s g :
  impl_build s = Built g ->
  map it_name (is_types (introspect g)) =
  filter (fun n => negb (prefix "__" n)) (map td_name (s_types s ++ builtin_types)).
Proof. exact (built_type_names s g). Qed.

Theorem C11_type_by_name_agrees g n ti :
  introspect_type g n = Some ti -> prefix "__" n = false -> In ti (is_types (introspect g)) /\ it_name ti = n.
Proof. exact (type_by_name_agrees g n ti). Qed.

Theorem C11_type_by_name_unknown g n : g_has_type g n = false -> introspect_type g n = None.
Proof. exact (type_by_name_unknown g n). Qed.

Theorem C11_include_deprecated_filters fs f :
  In f (without_deprecated fs) <-> In f fs /\ if_deprecated f = false.
Proof. exact (include_deprecated_filters fs f). Qed.

Theorem C11_possible_types_exact g i o :
  In o (g_implementers g i) <->
  exists t ifs fs, In t (g_types g) /\ td_name t = o /\ td_def t = DObject ifs fs /\ In i ifs.
Proof. exact (possible_types_exact g i o). Qed.

Theorem C11_reported_fields_exact g tn fs name :
  In name (map if_name (fields_of_type g tn fs)) <->
  exists f, In f fs /\ fd_name f = name /\ prefix "__" name = false /\ hidden g tn name = false.
Proof. exact (reported_fields_exact g tn fs name). Qed.

(* `extend` definitions: after a type extension is merged, __type(name:) describes the merged definition, with the
   extension's members added -- enum values, union members and implemented interfaces appended in order (the added
   directives are carried by the definition, not reported) *)
Theorem C11_extension_is_reported g n t d dirs :
  find_tdecl (g_types g) n = Some t ->
  introspect_type (apply_ext g (XType n d dirs)) n = Some (type_info (apply_ext g (XType n d dirs)) (extended t d dirs)).
Proof. exact (extension_is_reported g n t d dirs). Qed.

Theorem C11_extended_enum_values_reported g n t vs xs dirs :
  find_tdecl (g_types g) n = Some t -> td_def t = DEnum vs ->
  exists ti, introspect_type (apply_ext g (XType n (DEnum xs) dirs)) n = Some ti /\
             option_map (map fst) (it_enum ti) = Some (vs ++ xs).
Proof. exact (extended_enum_values_reported g n t vs xs dirs). Qed.

Theorem C11_extended_union_members_reported g n t ms xs dirs :
  find_tdecl (g_types g) n = Some t -> td_def t = DUnion ms ->
  exists ti, introspect_type (apply_ext g (XType n (DUnion xs) dirs)) n = Some ti /\ it_possible ti = Some (ms ++ xs).
Proof. exact (extended_union_members_reported g n t ms xs dirs). Qed.

Theorem C11_extended_object_interfaces_reported g n t ifs fs xifs xfs dirs :
  find_tdecl (g_types g) n = Some t -> td_def t = DObject ifs fs ->
  exists ti, introspect_type (apply_ext g (XType n (DObject xifs xfs) dirs)) n = Some ti /\ it_interfaces ti = Some (ifs ++ xifs).
Proof. exact (extended_object_interfaces_reported g n t ifs fs xifs xfs dirs). Qed.

(* non-vacuity: an interface whose implementer is declared BEFORE it and extended afterwards *)
Definition T (n : string) (d : typedef) : tdecl := {| td_name := n; td_def := d; td_dirs := [] |}.
Definition F (n : string) (t : ty) : field_def := {| fd_name := n; fd_type := t; fd_args := [] |}.
Definition demo : sdl :=
  {| s_types := [T "Dog" (DObject ["Named"] [F "name" (TNamed "String")]); T "Named" (DInterface [F "name" (TNamed "String")]);
                 T "Query" (DObject [] [F "pet" (TNamed "Named")])];
     s_dirdefs := []; s_exts := [XType "Dog" (DObject [] [F "age" (TNonNull (TNamed "Int")); F "secret" (TNamed "Int")]) []];
     s_schema := []; s_schema_dirs := []; s_scalar_impls := [];
     s_member_dirs := [("Dog", "secret", ["nonIntrospectable"]); ("Dog", "age", ["deprecated"])] |}.
Example C11_demo :
  match impl_build demo with
  | Built g =>
      g_implementers g "Named" = ["Dog"] /\
      match introspect_type g "Dog" with
      | Some ti => option_map (map (fun f => (if_name f, if_deprecated f))) (it_fields ti) = Some [("name", false); ("age", true)]
      | None => False
      end /\ introspect_type g "Nope" = None
  | _ => False
  end.
Proof. vm_compute. repeat split. Qed.

Print Assumptions C11_types_exact.
Print Assumptions C11_type_by_name_agrees.
Print Assumptions C11_type_by_name_unknown.
Print Assumptions C11_include_deprecated_filters.
Print Assumptions C11_possible_types_exact.
Print Assumptions C11_reported_fields_exact.
Print Assumptions C11_extension_is_reported.
Print Assumptions C11_extended_enum_values_reported.
Print Assumptions C11_extended_union_members_reported.
Print Assumptions C11_extended_object_interfaces_reported.
