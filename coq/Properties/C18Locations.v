(* C18 — "... a `locations` list of positive line/column pairs lying inside the query text".
   Statements only.  The executor never invents a location: every location of every entry handed
   to the error coercer is one the PARSER attached to a node of the document (a field node, the
   outermost value node of an argument, a variable definition).  So for ANY predicate P on
   locations -- in particular "a positive pair inside the request text" -- that holds of the
   document's node locations, P holds of every reported location: for every schema, user code,
   configuration, operation name, variables object, initial value and total error coercer.
   Outside the model: which locations the parser attaches (stand-in), and the entries produced by
   validation (an oracle of Model/Envelope.v; checked on the real engine by the C18 harness). *)
From Coq Require Import ZArith List String.
From TV Require Import Py.Prelude Model.Schema Model.ImplExec Model.Envelope
                       Proofs.ExecLocations.
Import ListNotations.

(* every location the executor may report comes from the document *)
Theorem C18_error_locations_come_from_the_document
        (P : loc -> Prop) A (coercer : gerr -> A) sch U cfg d opname raw root :
  doc_good P d ->
  Forall (gerr_good P)
         (e_coercer_calls A (engine_execute A coercer sch U cfg (PDoc d) opname raw root)).
Proof. exact (engine_execute_locations P A coercer sch U cfg d opname raw root). Qed.

(* the same about the state-passing executor: the response's `errors` *)
Theorem C18_response_error_locations_come_from_the_document
        (P : loc -> Prop) sch d U cfg opname raw root r :
  doc_good P d ->
  impl_execute sch d U cfg opname raw root = OVal r -> Forall (gerr_good P) (r_errors r).
Proof. exact (impl_execute_locations P sch d U cfg opname raw root r). Qed.

(* "inside the text": 1-based line within the text, 1-based column at most one past the end of
   that line; `widths` are the lengths of the lines of the request text *)
Definition in_text (widths : list Z) (l : loc) : Prop :=
  (1 <= fst l)%Z /\
  exists w, nth_error widths (Z.to_nat (fst l - 1)) = Some w /\ (1 <= snd l <= w + 1)%Z.

Corollary C18_error_locations_lie_inside_the_text
          widths A (coercer : gerr -> A) sch U cfg d opname raw root :
  doc_good (in_text widths) d ->
  Forall (fun g => Forall (in_text widths) (g_locs g))
         (e_coercer_calls A (engine_execute A coercer sch U cfg (PDoc d) opname raw root)).
Proof. exact (engine_execute_locations (in_text widths) A coercer sch U cfg d opname raw root). Qed.

(* the parser's other verdicts: a syntax error reports the parser's own location, a crash none *)
Theorem C18_syntax_error_reports_the_parsers_location A (coercer : gerr -> A) sch U cfg l opname raw root :
  map g_locs (e_coercer_calls A (engine_execute A coercer sch U cfg (PSyntaxError l) opname raw root)) = [[l]] /\
  map g_locs (e_coercer_calls A (engine_execute A coercer sch U cfg PCrash opname raw root)) = [[]].
Proof. split; reflexivity. Qed.

(* non-vacuity: the request  query($v:Int=1){a(x:$v) b}  (one line of 26 characters) with variables
   {"v": null}: rule 5.8.5 allows $v at the Int! argument because it has a default, the runtime
   null then fails field `a` (location: the argument's value, column 21); `b` resolves to an
   exception object (location: the field, column 25).  Two entries, one location each, both the
   document's own *)
Definition c18_sch : schema :=
  {| types := [("Int", DScalar); ("Query", DObject [] [ {| fd_name := "a"; fd_type := TNamed "Int";
                                          fd_args := [ {| in_name := "x"; in_type := TNonNull (TNamed "Int"); in_default := None |} ] |};
                                       {| fd_name := "b"; fd_type := TNamed "Int"; fd_args := [] |} ])];
     query_type := "Query"; mutation_type := None; subscription_type := None;
     scalars := fun n => if String.eqb n "Int" then Some {| s_input := fun v => Ok v; s_literal := fun v => Ok v; s_output := fun v => Ok v |} else None |}.
Definition c18_op : operation :=
  {| o_kind := OpQuery; o_name := None;
     o_vars := [ {| v_name := "v"; v_type := TNamed "Int"; v_default := Some (LInt (1,14)%Z (PStr "1")); v_loc := (1, 7)%Z |} ];
     o_dirs := [];
     o_sels := [SField (1,17)%Z None "a" [ {| a_name := "x"; a_value := LVar (1,21)%Z "v"; a_loc := (1,19)%Z |} ] [] [];
                SField (1,25)%Z None "b" [] [] []];
     o_loc := (1,1)%Z |}.
Definition c18_doc : document := {| operations := [c18_op]; fragments := [] |}.
Definition c18_U : usercode :=
  {| has_resolver := fun t f => String.eqb f "b";
     resolver := fun _ _ _ _ _ => URet (PExc (UserErr "boom"));
     type_resolver_kind := fun _ _ _ => TRDefault; type_resolver := fun _ _ _ => URet PNone |}.

Example C18_locations_nonvacuous :
  doc_good (in_text [26%Z]) c18_doc /\
  map g_locs (e_coercer_calls gerr (engine_execute gerr (fun g => g) c18_sch c18_U (uniform_cfg true true)
                                                   (PDoc c18_doc) None [("v", PNone)] PNone))
  = [[(1, 21)%Z]; [(1, 25)%Z]].
Proof.
  split; [| reflexivity].
  assert (H : forall c, (1 <= c <= 27)%Z -> in_text [26%Z] (1, c)%Z).
  { intros c Hc. split; [apply Z.le_refl|]. exists 26%Z. split; [reflexivity|exact Hc]. }
  split.
  - constructor; [|constructor]. split.
    + constructor; [|constructor]. apply H. split; discriminate.
    + repeat split; try (apply H; split; discriminate).
      * constructor; [|constructor]. apply H. split; discriminate.
      * constructor.
  - constructor.
Qed.

Print Assumptions C18_error_locations_come_from_the_document.
Print Assumptions C18_response_error_locations_come_from_the_document.
Print Assumptions C18_error_locations_lie_inside_the_text.
Print Assumptions C18_syntax_error_reports_the_parsers_location.
Print Assumptions C18_locations_nonvacuous.
