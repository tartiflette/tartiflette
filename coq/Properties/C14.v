(* C14 — subscriptions answer every source event once, in order.
   Statements only, about the implementation model of Engine.subscribe (Model/Subscribe.v): for
   every schema, document, user code and EVERY finite event sequence the source produces.
   PARTIAL: the async-generator protocol (aclose, consumer cancellation, interleaving of
   production and consumption) is runtime behaviour outside the model; the correspondence check
   consumes the real stream event by event. *)
From Coq Require Import List String.
From TV Require Import Py.Prelude Model.Schema Model.ImplInput Model.ImplExec Model.Subscribe Model.ImplValidate Model.SubscribeValidated
     Proofs.SingleRoot Proofs.SingleRootSpreads.
Import ListNotations.

Section C14.
Variable sch : schema.
Variable doc : document.
Variable U : usercode.
Variable cfg : config.
Variable source : string -> list (string * pyval) -> list pyval.
Variable has_source : string -> bool.

(* the outcomes of Engine.subscribe: a stream is the executions of the request against the events of one source,
   a refusal is one errors-only response *)
Lemma impl_subscribe_outcome opname raw :
  match impl_subscribe sch doc U cfg source has_source opname raw with
  | SubStream args rs =>
      exists field, rs = map (fun payload => impl_execute sch doc U cfg opname raw payload) (source field args)
  | SubRefused r => r_data r = PNone /\ r_errors r <> [] /\ r_log r = []
  | _ => True
  end.
Proof.
  unfold impl_subscribe.
  destruct (select_operation doc opname) as [op|]; [| repeat split; discriminate].
  destruct (coerce_variables sch 40 (o_vars op) raw) as [[vs [|e es]]|]; [| repeat split; discriminate|exact I].
  destruct (root_type_of sch (o_kind op)) as [rt|]; [|exact I].
  destruct (collect_fields sch doc vs COLLECT_FUEL rt (o_sels op) [] []) as [[[|[key [|node ns]] fs] v]|]; try exact I.
  destruct (get_field_definition sch rt (fn_name node)) as [fd|]; [|exact I].
  destruct (negb (has_source (fd_name fd))); [exact I|].
  destruct (coerce_arguments sch 20 (fd_args fd) (fn_loc node) (fn_args node) vs) as [[a [|e es]]|]; try exact I. eauto.
Qed.

(* one response per event, in order, each being the execution of the request against that
   event as root value (C01/C02 semantics, argument coercion included) *)
Theorem C14_subscribe_is_map opname raw args rs :
  impl_subscribe sch doc U cfg source has_source opname raw = SubStream args rs ->
  exists field, rs = map (fun payload => impl_execute sch doc U cfg opname raw payload) (source field args).
Proof. intros H. pose proof (impl_subscribe_outcome opname raw) as Ho. now rewrite H in Ho. Qed.

Corollary C14_one_response_per_event opname raw args rs :
  impl_subscribe sch doc U cfg source has_source opname raw = SubStream args rs ->
  exists field, List.length rs = List.length (source field args).
Proof.
  intros H. destruct (C14_subscribe_is_map _ _ _ _ H) as [f ->]. exists f. apply map_length.
Qed.

(* the i-th response depends on the i-th event only: a field failure inside one event's
   response cannot end or alter the rest of the stream *)
Corollary C14_responses_pointwise opname raw args rs :
  impl_subscribe sch doc U cfg source has_source opname raw = SubStream args rs ->
  exists field, forall i d,
    nth i rs d = nth i (map (fun payload => impl_execute sch doc U cfg opname raw payload) (source field args)) d.
Proof.
  intros H. destruct (C14_subscribe_is_map _ _ _ _ H) as [f ->]. exists f. reflexivity.
Qed.

(* a request failing operation selection or variable coercion: a single errors-only response,
   and the source is not started (no SubStream) *)
Theorem C14_refused_request_single_response opname raw r :
  impl_subscribe sch doc U cfg source has_source opname raw = SubRefused r ->
  r_data r = PNone /\ r_errors r <> [] /\ r_log r = [].
Proof. intros H. pose proof (impl_subscribe_outcome opname raw) as Ho. now rewrite H in Ho. Qed.

End C14.

(* validation in front of the subscription executor (Model/SubscribeValidated.v): a document the validation walk
   refuses is answered with ONE errors-only response and no source stream is created ... *)
Theorem C14_refused_document_never_starts_the_source V U cfg source has_source doc opname raw :
  accepted V doc = false ->
  exists r, validate_and_subscribe V U cfg source has_source doc opname raw = SubRefused r /\
            r_data r = PNone /\ r_errors r <> [] /\ r_log r = [].
Proof. exact (refused_subscription_never_starts V U cfg source has_source doc opname raw). Qed.

(* ... in particular a subscription reaching two different root response keys through fields and inline fragments *)
Theorem C14_two_root_fields_never_start_the_source V U cfg source has_source doc opname raw o :
  In o (operations doc) -> o_kind o = OpSubscription -> two_root_keys (o_sels o) ->
  exists r, validate_and_subscribe V U cfg source has_source doc opname raw = SubRefused r /\ r_data r = PNone /\ r_errors r <> [].
Proof.
  intros Hin Hk Htwo.
  pose proof (two_reachable_keys_refused V doc o Hin Hk (two_root_two_reachable _ _ Htwo)) as Hacc.
  destruct (refused_subscription_never_starts V U cfg source has_source doc opname raw Hacc) as (r & H1 & H2 & H3 & _).
  exists r. auto.
Qed.

(* ... or through any chain of fragment spreads *)
Theorem C14_two_reachable_root_fields_never_start_the_source V U cfg source has_source doc opname raw o :
  In o (operations doc) -> o_kind o = OpSubscription -> two_reachable_keys (fragments doc) (o_sels o) ->
  exists r, validate_and_subscribe V U cfg source has_source doc opname raw = SubRefused r /\ r_data r = PNone /\ r_errors r <> [].
Proof.
  intros Hin Hk Htwo.
  pose proof (two_reachable_keys_refused V doc o Hin Hk Htwo) as Hacc.
  destruct (refused_subscription_never_starts V U cfg source has_source doc opname raw Hacc) as (r & H1 & H2 & H3 & _).
  exists r. auto.
Qed.

(* an accepted document is executed by the subscription executor unchanged *)
Theorem C14_accepted_document_is_executed V U cfg source has_source doc opname raw :
  accepted V doc = true ->
  validate_and_subscribe V U cfg source has_source doc opname raw = impl_subscribe (vs V) doc U cfg source has_source opname raw.
Proof. exact (accepted_subscription_is_executed V U cfg source has_source doc opname raw). Qed.

Print Assumptions C14_subscribe_is_map.
Print Assumptions C14_one_response_per_event.
Print Assumptions C14_responses_pointwise.
Print Assumptions C14_refused_request_single_response.
Print Assumptions C14_refused_document_never_starts_the_source.
Print Assumptions C14_two_root_fields_never_start_the_source.
Print Assumptions C14_accepted_document_is_executed.
Print Assumptions C14_two_reachable_root_fields_never_start_the_source.
