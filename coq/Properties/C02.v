(* C02 — field failures are contained: null propagation and error accounting.
   Statements only, about the implementation model of execution (Model/ImplExec.v), for every
   schema, document, variable map, user code (resolver / type-resolver oracles over the whole
   value universe, raising or returning anything), configuration and fuel.
   Proved: the local laws of containment; against the specification's algorithm (Model/SpecExec.v),
   whenever it yields (data, origins): the data is that data and every entry of `errors` points at an
   origin, for every configuration and operation kind; every origin is reported too when all sibling
   fields are executed (queries, every field concurrent).
   PARTIAL: the global statement phrased over fault sets ("data(R_F) = data(R) with exactly the nearest
   nullable ancestors of the faults nulled") and the converse inclusion for mutations / sequential
   siblings are decided per run by the check (fault enumeration against the specification executor,
   predicate spec_verdict). *)
From Coq Require Import ZArith List String.
From TV Require Import Py.Prelude Model.Schema Model.ImplInput Model.ImplExec Model.SpecExec Proofs.ExecErrors
     Proofs.ExecOrigins.
Import ListNotations.
Open Scope list_scope.

Section C02.
Variable sch : schema.
Variable doc : document.
Variable vs : vars.
Variable U : usercode.
Variable cfg : config.

(* errors is append-only; everything recorded while the field at path p is resolved and
   completed is located at or below p (list indices included); whatever it raises is a
   non-empty list of exceptions located at or below p *)
Theorem C02_errors_located_below_field fuel otype value opath k ns s r s' :
  resolve_field sch doc vs U cfg fuel otype value opath k ns s = (r, s') ->
  grows_below (opath ++ [KName k]) s s' /\
  match r with
  | OExc l => l <> [] /\ Forall (exn_located_below (opath ++ [KName k])) l
  | _ => True
  end.
Proof. apply (resolve_field_err_ok sch doc vs U cfg fuel). Qed.

(* a field of nullable type never raises: the failure stops there *)
Theorem C02_nullable_field_contains rf ptype fd nodes path raw s r s' :
  is_non_null (fd_type fd) = false ->
  complete_field sch doc vs U cfg rf ptype fd nodes path raw s = (r, s') ->
  forall l, r <> OExc l.
Proof. apply nullable_field_contains. Qed.

(* ... it becomes null and at least one error is recorded *)
Theorem C02_failed_nullable_field_is_null_with_error rf ptype fd nodes path l s r s' :
  is_non_null (fd_type fd) = false -> l <> [] ->
  complete_field sch doc vs U cfg rf ptype fd nodes path (OExc l) s = (r, s') ->
  r = OVal (Some PNone) /\ exists e es, s_errors s' = s_errors s ++ e :: es.
Proof. apply failed_nullable_field_is_null_with_error. Qed.

(* a failed field of non-null type propagates to its parent without recording anything yet *)
Theorem C02_failed_non_null_field_raises rf ptype fd nodes path l s r s' :
  is_non_null (fd_type fd) = true ->
  complete_field sch doc vs U cfg rf ptype fd nodes path (OExc l) s = (r, s') ->
  exists l', r = OExc l' /\ s' = s.
Proof. apply failed_non_null_field_raises. Qed.

(* execute never lets an exception escape *)
Theorem C02_execute_never_raises op root l :
  execute_operation sch doc vs U cfg op root <> OExc l.
Proof. apply execute_operation_never_raises. Qed.

(* data: null is always explained by at least one error *)
Theorem C02_null_data_has_error op root r :
  execute_operation sch doc vs U cfg op root = OVal r -> r_data r = PNone -> r_errors r <> [].
Proof. apply root_failure_nulls_data. Qed.

(* error accounting against the specification's algorithm (queries and subscriptions' source
   selection, sibling fields all executed): whenever ExecuteQuery as written in the GraphQL
   specification (Model/SpecExec.v) yields (data, origins) -- origins = the response paths where a
   field error ORIGINATED: a raising resolver or type resolver, an error object returned as a value
   or list item, null at non-null, an unserialisable leaf, a non-list for a list type, an unknown /
   foreign runtime type, failing arguments -- the implementation model returns that data, every
   origin is the path of some entry of `errors`, and every entry of `errors` carries a path which
   is one of the origins: nothing unexplained is nulled, no entry points elsewhere. *)
Theorem C02_errors_are_exactly_the_specified_origins op root d o :
  (forall t k ns, field_conc cfg t k ns = true) -> o_kind op <> OpMutation ->
  spec_execute_operation sch doc vs U op root = Some (d, o) ->
  exists r, execute_operation sch doc vs U cfg op root = OVal r /\ r_data r = d /\
            (forall p, In p o -> exists e, In e (r_errors r) /\ g_path e = Some p) /\
            (forall e, In e (r_errors r) -> exists p, g_path e = Some p /\ In p o).
Proof.
  intros Hc Hk Hs. destruct (execute_operation_accounts_exact sch doc vs U cfg op root d o Hc Hk Hs) as (r & Hr & Hd & Hp).
  exists r. split; [exact Hr|]. split; [exact Hd|]. split.
  - intros p Hin. pose proof (proj2 (Hp (Some p)) (in_map Some _ _ Hin)) as Hm.
    apply in_map_iff in Hm. destruct Hm as (e & He & Hine). exists e. split; assumption.
  - intros e Hin. pose proof (proj1 (Hp (g_path e)) (in_map g_path _ _ Hin)) as Hm.
    apply in_map_iff in Hm. destruct Hm as (p & Hpe & Hinp). exists p. split; [now symmetry|assumption].
Qed.

(* mutations and sequentially awaited siblings included (every operation kind, every configuration):
   the data is the specification's and no entry of `errors` points anywhere but at one of the
   specification's failure origins.  (The converse is not claimed there: once a non-null field of a
   serial chain has failed the later fields are never started, so their would-be origins are absent.) *)
Theorem C02_no_error_points_elsewhere op root d o :
  spec_execute_operation sch doc vs U op root = Some (d, o) ->
  exists r, execute_operation sch doc vs U cfg op root = OVal r /\ r_data r = d /\
            forall e, In e (r_errors r) -> exists p, g_path e = Some p /\ In p o.
Proof. exact (execute_operation_accounts_incl sch doc vs U cfg op root d o). Qed.

End C02.

(* non-vacuity: under a nullable object, one merged key whose leaf type has no output coercer (Int is not
   among the types of c02_sch) and one key for which the resolver returns an error object: the
   specification yields data with both nulled and two origins, and the model's errors are located at
   exactly those two paths *)
Definition c02_sch : schema :=
  {| types := [("Query", DObject [] [ {| fd_name := "a"; fd_type := TNamed "T"; fd_args := [] |} ]);
               ("T", DObject [] [ {| fd_name := "x"; fd_type := TNamed "Int"; fd_args := [] |};
                                  {| fd_name := "y"; fd_type := TNamed "Int"; fd_args := [] |} ])];
     query_type := "Query"; mutation_type := None; subscription_type := None;
     scalars := fun n => if String.eqb n "Int" then Some {| s_input := fun v => Ok v; s_literal := fun v => Ok v; s_output := fun v => Ok v |} else None |}.
Definition c02_doc : document :=
  {| operations := [];
     fragments := [ {| fr_name := "F"; fr_type := "T"; fr_dirs := [];
                       fr_sels := [SField (1,1)%Z None "y" [] [] []; SField (1,2)%Z (Some "x") "y" [] [] []];
                       fr_loc := (1,0)%Z |} ] |}.
Definition c02_U : usercode :=
  {| has_resolver := fun t f => String.eqb f "a";
     resolver := fun _ _ _ _ _ => URet (PDict [("x", PInt 1); ("y", PExc (UserErr "boom"))]);
     type_resolver_kind := fun _ _ _ => TRDefault; type_resolver := fun _ _ _ => URet PNone |}.
Definition c02_op : operation :=
  {| o_kind := OpQuery; o_name := None; o_vars := []; o_dirs := [];
     o_sels := [SField (1,1)%Z None "a" [] [] [SField (1,2)%Z None "x" [] [] []; SSpread (1,3)%Z "F" []]]; o_loc := (1,0)%Z |}.
Example C02_nonvacuous :
  spec_execute_operation c02_sch c02_doc [] c02_U c02_op PNone =
    Some (PDict [("a", PDict [("x", PNone); ("y", PNone)])], [[KName "a"; KName "x"]; [KName "a"; KName "y"]]%list) /\
  match execute_operation c02_sch c02_doc [] c02_U (uniform_cfg true true) c02_op PNone with
  | OVal r => map g_path (r_errors r) = [Some [KName "a"; KName "x"]; Some [KName "a"; KName "y"]]%list
  | _ => False
  end.
Proof. split; vm_compute; reflexivity. Qed.

Print Assumptions C02_errors_located_below_field.
Print Assumptions C02_nullable_field_contains.
Print Assumptions C02_failed_nullable_field_is_null_with_error.
Print Assumptions C02_failed_non_null_field_raises.
Print Assumptions C02_execute_never_raises.
Print Assumptions C02_null_data_has_error.
Print Assumptions C02_errors_are_exactly_the_specified_origins.
Print Assumptions C02_no_error_points_elsewhere.
