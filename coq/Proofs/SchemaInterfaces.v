(* C12, the interface clauses: an object that does not honour an interface it declares -- a field of the
   interface missing, its type not a valid implementation type (IsValidImplementationFieldType), an argument
   of the interface field missing or of another type, an additional required argument, an `implements` naming
   an undefined type or a type that is not an interface -- makes _validate_object_follow_interfaces report.
   For every schema whose interface fields do not use the reserved meta-field names. *)
From Coq Require Import List String Bool.
From TV Require Import Model.Schema Model.ImplValidate Model.SchemaBuild Model.SpecSchema
     Proofs.ListFacts Proofs.BuildFacts Proofs.SchemaProofs.
Import ListNotations.

Section Interfaces.
Variable g : gschema.

Definition meta_name (n : string) : bool := String.eqb n "__schema" || String.eqb n "__type" || String.eqb n "__typename".

(* what the engine's check appends for one interface field, one interface, the whole schema *)
Definition field_errs (tname : string) (fs : list field_def) (iff : field_def) : list string :=
  match find_field (obj_fields_with_meta g tname fs) (fd_name iff) with
  | None => ["interface-field-missing"]
  | Some f => (if valid_impl_type g (fd_type f) (fd_type iff) then [] else ["interface-field-type"]) ++
              args_follow (fd_args f) (fd_args iff)
  end.
Definition iface_errs (tname : string) (fs : list field_def) (i : string) : list string :=
  match g_find g i with
  | None => ["implements-unknown"]
  | Some (DInterface ifields) => flat_map (field_errs tname fs) ifields
  | Some _ => ["implements-non-interface"]
  end.
Definition follow_errs : list string :=
  flat_map (fun t => match td_def t with DObject ifs fs => flat_map (iface_errs (td_name t) fs) ifs | _ => [] end) (g_types g).

(* the field-type check always answers (interface_type_check_exact), so the three nested folds never raise
   and only append: the validator is a plain flat_map *)
Theorem v_follow_interfaces_total : v_follow_interfaces g = Some follow_errs.
Proof.
  apply (fold_left_some_app _ _ (g_types g)) with (acc := []).
  intros e t. destruct (td_def t) as [| | |ifs fs| |]; try now rewrite app_nil_r.
  apply fold_left_some_app. intros e1 i. unfold iface_errs. destruct (g_find g i) as [[| | | |ifields|]|]; try reflexivity.
  apply fold_left_some_app. intros e2 iff. unfold field_errs.
  destruct (find_field _ (fd_name iff)) as [f|]; [|reflexivity]. now rewrite interface_type_check_exact.
Qed.

Lemma find_field_metas tname n : meta_name n = false ->
  find_field ((if String.eqb tname (g_query g) then [schema_field; type_field] else []) ++ [typename_field]) n = None.
Proof.
  intros H. apply orb_false_elim in H. destruct H as [H H3]. apply orb_false_elim in H. destruct H as [H1 H2].
  destruct (String.eqb tname (g_query g)); cbn; rewrite ?H1, ?H2, ?H3; reflexivity.
Qed.

Lemma args_follow_flagged of_args if_args :
  (forallb (fun ia => match find (fun a => String.eqb (in_name a) (in_name ia)) of_args with
                      | Some a => ty_eqb (in_type a) (in_type ia)
                      | None => false end) if_args &&
   forallb (fun a => mem_str (in_name a) (map in_name if_args) || negb (is_non_null (in_type a)) ||
                     match in_default a with Some _ => true | None => false end) of_args) = false ->
  args_follow of_args if_args <> [].
Proof.
  intros H. unfold args_follow, input_names. apply andb_false_iff in H.
  destruct H as [H|H]; apply forallb_false_witness in H; destruct H as (x & Hx & Hp);
    [apply app_nonnil_l|apply app_nonnil_r]; apply (flat_map_nonnil _ _ x Hx).
  - destruct (find _ of_args); [now rewrite Hp|discriminate].
  - destruct (mem_str (in_name x) (map in_name if_args)); [discriminate|].
    destruct (is_non_null (in_type x)); discriminate.
Qed.

Lemma field_errs_flags tname fs iff :
  meta_name (fd_name iff) = false -> honours g fs iff = false -> field_errs tname fs iff <> [].
Proof.
  intros Hm Hh. unfold field_errs, obj_fields_with_meta, honours in *.
  destruct (find_field fs (fd_name iff)) as [f|] eqn:Ef.
  - rewrite find_field_app, Ef.
    destruct (valid_impl_type g (fd_type f) (fd_type iff)); [|discriminate].
    now apply args_follow_flagged.
  - now rewrite find_field_app, Ef, (find_field_metas tname _ Hm).
Qed.

Definition iface_fields_plain (i : string) : Prop :=
  forall ifields iff, g_find g i = Some (DInterface ifields) -> In iff ifields -> meta_name (fd_name iff) = false.

Theorem interfaces_not_honoured_reported :
  (forall i, iface_fields_plain i) -> v_interface_not_honoured g = true -> v_follow_interfaces g <> Some [].
Proof.
  intros Hp Hv. rewrite v_follow_interfaces_total. intros E. injection E. revert Hv.
  apply existsb_flagged. intros t _. destruct (td_def t) as [| | |ifs fs| |]; try discriminate.
  apply existsb_flagged. intros i _. unfold iface_errs. specialize (Hp i). unfold iface_fields_plain in Hp.
  destruct (g_find g i) as [[| | | |ifields|]|]; try discriminate. intros H.
  apply negb_true_iff, forallb_false_witness in H. destruct H as (iff & Hin & Hh).
  apply (flat_map_nonnil _ _ iff Hin). exact (field_errs_flags _ fs iff (Hp _ _ eq_refl Hin) Hh).
Qed.

End Interfaces.

Theorem interface_not_honoured_validate g :
  (forall i, iface_fields_plain g i) -> v_interface_not_honoured g = true -> validate g <> Some [].
Proof. intros Hp Hv E. apply validate_clean in E. now apply (interfaces_not_honoured_reported g Hp Hv). Qed.

Theorem build_rejects_unhonoured_interfaces s g0 :
  initial s = inl g0 ->
  (forall i, iface_fields_plain (fold_left apply_ext (s_exts s) g0) i) ->
  v_interface_not_honoured (fold_left apply_ext (s_exts s) g0) = true -> builds s = false.
Proof. intros Hi Hp Hd. apply (not_built s g0 Hi). right. now apply interface_not_honoured_validate. Qed.
