(* C03: "the response is JSON-serialisable".  A value that conforms to its declared type (Proofs/ExecConform.v
   conf_ty: what C03_data_conforms establishes of every non-null data) is a JSON value -- null, booleans, integers,
   finite floats, text, lists and string-keyed objects of such -- as soon as every scalar's serialiser produces JSON
   values; the five built-in scalars, as regenerated from /repo, do. *)
From Coq Require Import List String Bool.
From TV Require Import Py.Prelude Model.Schema Model.ImplInput Model.ImplExec
     Proofs.ExecConform Proofs.BuiltinLeaves.
Import ListNotations.

Fixpoint json_val (v : pyval) : bool :=
  match v with
  | PNone | PBool _ | PInt _ | PStr _ => true
  | PFloat f => sf_finite f
  | PList l => (fix all (xs : list pyval) : bool := match xs with [] => true | x :: r => json_val x && all r end) l
  | PDict kv => (fix all (xs : list (string * pyval)) : bool := match xs with [] => true | (_, x) :: r => json_val x && all r end) kv
  | _ => false
  end.

Lemma json_list l : json_val (PList l) = forallb json_val l.
Proof. cbn [json_val]. induction l as [|x r IH]; [reflexivity|]. now rewrite IH. Qed.
Lemma json_dict kv : json_val (PDict kv) = forallb (fun e => json_val (snd e)) kv.
Proof. cbn [json_val]. induction kv as [|[k x] r IH]; [reflexivity|]. now rewrite IH. Qed.

Section Json.
Variable sch : schema.
Variable doc : document.
Variable vs : vars.
Hypothesis scalars_serialise_json : forall n ops v r,
  find_type sch n = Some DScalar -> scalars sch n = Some ops -> s_output ops v = Ok r -> is_undef r = false -> json_val r = true.

(* conf_ty and conf_fields are mutual and conf_ty is nested in Forall: Coq derives no induction
   principle that reaches the list items, so the proof is written as the recursive function it is *)
Fixpoint conf_json t nodes v (H : conf_ty sch doc vs t nodes v) {struct H} : json_val v = true :=
  match H in conf_ty _ _ _ t0 nodes0 v0 return json_val v0 = true with
  | CNull _ _ _ _ _ _ => eq_refl
  | CNonNull _ _ _ _ _ _ _ H' => conf_json _ _ _ H'
  | CList _ _ _ t' nodes' l HF =>
      eq_trans (json_list l)
        ((fix go (xs : list pyval) (F : Forall (conf_ty sch doc vs t' nodes') xs) {struct F} : forallb json_val xs = true :=
            match F in Forall _ xs0 return forallb json_val xs0 = true with
            | Forall_nil _ => eq_refl
            | Forall_cons x Hx Fr => proj2 (andb_true_iff _ _) (conj (conf_json _ _ _ Hx) (go _ Fr))
            end) l HF)
  | CScalar _ _ _ n _ ops v1 r Hn Hops Ho Hu => scalars_serialise_json n ops v1 r Hn Hops Ho Hu
  | CEnum _ _ _ _ _ _ _ _ _ => eq_refl
  | CObject _ _ _ _ _ rt sub kv _ _ _ Hf => eq_trans (json_dict kv) (fields_json rt sub kv Hf)
  end
with fields_json rt sub kv (H : conf_fields sch doc vs rt sub kv) {struct H} : forallb (fun e => json_val (snd e)) kv = true :=
  match H in conf_fields _ _ _ rt0 sub0 kv0 return forallb (fun e => json_val (snd e)) kv0 = true with
  | CFNil _ _ _ _ => eq_refl
  | CFSkip _ _ _ _ _ _ _ _ _ _ H' => fields_json _ _ _ H'
  | CFCons _ _ _ _ _ _ _ _ _ _ _ _ Hv H' => proj2 (andb_true_iff _ _) (conj (conf_json _ _ _ Hv) (fields_json _ _ _ H'))
  end.
End Json.

Theorem data_is_json sch doc vs U cfg op root r :
  (forall n ops v r0, find_type sch n = Some DScalar -> scalars sch n = Some ops -> s_output ops v = Ok r0 -> is_undef r0 = false ->
                      json_val r0 = true) ->
  execute_operation sch doc vs U cfg op root = OVal r -> json_val (r_data r) = true.
Proof.
  intros Hsc H. destruct (execute_operation_conforms sch doc vs U cfg op root r H) as [->|(rt & fs & v & kv & _ & _ & -> & Hf)]; [reflexivity|].
  rewrite json_dict. exact (fields_json sch doc vs Hsc rt fs kv Hf).
Qed.

Lemma builtin_leaf_json n r : builtin_leaf n r = true -> json_val r = true.
Proof. unfold builtin_leaf. repeat destruct (String.eqb n _); destruct r; cbn; congruence. Qed.

Theorem builtin_scalars_serialise_json O n ops v r :
  builtin_scalars O n = Some ops -> s_output ops v = Ok r -> json_val r = true.
Proof. intros H Ho. exact (builtin_leaf_json n r (builtin_scalars_output_leaf O n ops v r H Ho)). Qed.

Theorem builtin_schema_data_is_json O sch doc vs U cfg op root r :
  (forall n, scalars sch n = builtin_scalars O n) ->
  execute_operation sch doc vs U cfg op root = OVal r -> json_val (r_data r) = true.
Proof.
  intros Hsc. apply data_is_json. intros n ops v r0 _ Hops Ho _. rewrite Hsc in Hops.
  exact (builtin_scalars_serialise_json O n ops v r0 Hops Ho).
Qed.

Theorem builtin_leaf_conforms O sch doc vs n nodes v :
  (forall m, scalars sch m = builtin_scalars O m) -> find_type sch n = Some DScalar ->
  conf_ty sch doc vs (TNamed n) nodes v -> v = PNone \/ builtin_leaf n v = true.
Proof.
  intros Hsc Hn H. inversion H as [| | |n0 nd ops v0 r Hf Hops Ho Hu|n0 nd values x Hf|n0 nd rt sub kv Hp Hex Hc Hfs].
  - now left.
  - right. rewrite Hsc in Hops. exact (builtin_scalars_output_leaf O n ops v0 v Hops Ho).
  - congruence.
  - destruct Hp as [->|Hp]; destruct Hex as (ifs & fs & Hex).
    + congruence.
    + unfold possible_types in Hp. rewrite Hn in Hp. discriminate.
Qed.
