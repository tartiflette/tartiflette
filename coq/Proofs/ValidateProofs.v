(* Rules of Model/ImplValidate.v against the predicates of Model/SpecValidate.v: the uniqueness rules report
   nothing exactly when the names are distinct; the fragment-cycle rule answers Some [] exactly when the
   spread graph has a rank decreasing along every edge (cycle_rule_exact); an emit never undoes a refusal. *)
From Coq Require Import List String Bool Lia Arith.
From TV Require Import Model.Schema Model.ImplValidate Model.SpecValidate Proofs.ListFacts.
Import ListNotations.

Lemma mem_str_false x l : mem_str x l = false <-> ~ In x l.
Proof. rewrite <- mem_str_iff. destruct (mem_str x l); split; intros; try discriminate; try reflexivity; exfalso; auto. Qed.

Lemma nodupb_iff l : nodupb l = true <-> NoDup l.
Proof.
  induction l as [|x l IH]; cbn [nodupb].
  - split; [constructor|reflexivity].
  - rewrite andb_true_iff, negb_true_iff, mem_str_false, IH. split.
    + now constructor.
    + intros H. inversion H. auto.
Qed.

Section Uniq.
Context {A : Type} (name : A -> string).

Definition same_as (x : A) (all : list A) : list A :=
  filter (fun y => String.eqb (name y) (name x)) all.

Lemma uniq_groups_nil all l tested :
  uniq_groups name all l tested = [] <->
  (forall x, In x l -> ~ In (name x) tested -> (List.length (same_as x all) <= 1)%nat).
Proof.
  revert tested; induction l as [|x r IH]; intros tested; cbn [uniq_groups].
  - split; [intros _ x []|reflexivity].
  - destruct (mem_str (name x) tested) eqn:Hm.
    + rewrite IH. apply mem_str_iff in Hm. split; intros H y Hy Hn.
      * destruct Hy as [->|Hy]; [contradiction|auto].
      * apply H; [now right|auto].
    + change (filter (fun y => String.eqb (name y) (name x)) all) with (same_as x all).
      apply mem_str_false in Hm.
      destruct (1 <? List.length (same_as x all))%nat eqn:Hc.
      * split; [discriminate|]. intros H. apply Nat.ltb_lt in Hc.
        specialize (H x (or_introl eq_refl) Hm). lia.
      * rewrite IH. apply Nat.ltb_ge in Hc. split; intros H y Hy Hn.
        -- destruct Hy as [->|Hy]; [exact Hc|]. apply H; assumption.
        -- apply H; [now right|assumption].
Qed.

Lemma same_as_count x all :
  List.length (same_as x all) = count_occ string_dec (map name all) (name x).
Proof.
  unfold same_as. induction all as [|y all IH]; cbn [filter map count_occ]; [reflexivity|].
  destruct (string_dec (name y) (name x)) as [E|E].
  - rewrite E, String.eqb_refl. cbn [List.length]. now rewrite IH.
  - apply String.eqb_neq in E. rewrite E. exact IH.
Qed.

Lemma uniq_groups_NoDup l : uniq_groups name l l [] = [] <-> NoDup (map name l).
Proof.
  rewrite uniq_groups_nil, (NoDup_count_occ string_dec). split.
  - intros H n. destruct (in_dec string_dec n (map name l)) as [Hi|Hi].
    + apply in_map_iff in Hi. destruct Hi as (x & <- & Hx). rewrite <- same_as_count. apply H; [exact Hx|intros []].
    + apply (count_occ_not_In string_dec) in Hi. lia.
  - intros H x _ _. rewrite same_as_count. apply H.
Qed.

Lemma uniq_errors_NoDup tag where_ path l :
  uniq_errors tag name where_ path l = [] <-> NoDup (map name l).
Proof.
  unfold uniq_errors. rewrite <- uniq_groups_NoDup.
  destruct (uniq_groups name l l []); split; try reflexivity; discriminate.
Qed.
Lemma uniq_errors_nodupb tag where_ path l :
  uniq_errors tag name where_ path l = [] <-> nodupb (map name l) = true.
Proof. now rewrite uniq_errors_NoDup, nodupb_iff. Qed.
End Uniq.

(* the two document-level uniqueness rules against the specification's statement; the four others are
   uniq_errors_nodupb as it stands *)
Lemma named_ops_names ops :
  map op_key (filter (fun o => match o_name o with Some _ => true | None => false end) ops) =
  flat_map (fun o => match o_name o with Some n => [n] | None => [] end) ops.
Proof.
  induction ops as [|o ops IH]; [reflexivity|]. cbn [filter flat_map].
  destruct (o_name o) eqn:E; cbn [map app].
  - unfold op_key at 1. rewrite E. now rewrite IH.
  - exact IH.
Qed.

Lemma operation_names_rule doc :
  operation_name_errors (operations doc) = [] <-> r_operation_names doc = true.
Proof.
  unfold operation_name_errors.
  now rewrite uniq_errors_nodupb, named_ops_names.
Qed.

Lemma fragment_names_rule doc :
  fragment_name_errors (fragments doc) = [] <-> r_fragment_names doc = true.
Proof. apply uniq_errors_nodupb. Qed.

Lemma find_fragment_some frs n g : find_fragment frs n = Some g -> In g frs /\ fr_name g = n.
Proof.
  induction frs as [|f frs IH]; cbn [find_fragment]; [discriminate|].
  destruct (String.eqb n (fr_name f)) eqn:E.
  - intros H. inversion H; subst. apply String.eqb_eq in E. split; [now left|now symmetry].
  - intros H. destruct (IH H). split; [now right|assumption].
Qed.

Lemma find_fragment_in_names frs n :
  In n (map fr_name frs) -> exists g, find_fragment frs n = Some g.
Proof.
  induction frs as [|f frs IH]; cbn [map find_fragment]; [intros []|].
  intros [E|Hi].
  - subst. rewrite String.eqb_refl. eauto.
  - destruct (String.eqb n (fr_name f)); eauto.
Qed.

(* declarative acyclicity: a rank that strictly decreases along every spread edge between
   defined fragments *)
Definition ranked (frs : list fragment) (rank : string -> nat) : Prop :=
  forall f n g, In f frs -> In n (spreads_of (fr_sels f)) -> find_fragment frs n = Some g ->
                (rank (fr_name g) < rank (fr_name f))%nat.
Definition acyclic (frs : list fragment) : Prop := exists rank, ranked frs rank.

Lemma cyc_each_ok rec frs path' self names checked :
  (forall n, In n names -> mem_str n path' = false) ->
  (forall n f c, In n names -> find_fragment frs n = Some f -> exists c', rec f c = Some (inl c')) ->
  exists c', cyc_each rec frs path' self names checked = Some (inl c').
Proof.
  revert checked; induction names as [|n r IH]; intros checked Hp Hr; cbn [cyc_each].
  - eauto.
  - rewrite (Hp n (or_introl eq_refl)).
    destruct (find_fragment frs n) as [f|] eqn:Ef.
    + destruct (Hr n f checked (or_introl eq_refl) Ef) as [c' ->].
      apply IH; intros; [apply Hp|eapply Hr]; eauto; now right.
    + apply IH; intros; [apply Hp|eapply Hr]; eauto; now right.
Qed.

Lemma cyc_fragment_ok rank frs (Hr : ranked frs rank) :
  forall fuel fr path checked,
    In fr frs -> NoDup path -> incl path (map fr_name frs) ->
    (forall p, In p path -> (rank (fr_name fr) < rank p)%nat) ->
    (List.length frs < fuel + List.length path)%nat ->
    exists checked', cyc_fragment fuel frs fr path checked = Some (inl checked').
Proof.
  induction fuel as [|fuel IH]; intros fr path checked Hin Hnd Hincl Hrank Hfuel.
  - (* pigeonhole: the path extended with this fragment is duplicate-free and drawn from the fragment names *)
    assert (Hn : ~ In (fr_name fr) path) by (intros Hi; specialize (Hrank _ Hi); lia).
    assert (Hl : (List.length (fr_name fr :: path) <= List.length (map fr_name frs))%nat).
    { apply NoDup_incl_length; [now constructor|].
      intros x [<-|Hx]; [now apply in_map|auto]. }
    rewrite map_length in Hl. cbn [List.length] in Hl. lia.
  - cbn [cyc_fragment]. destruct (mem_str (fr_name fr) checked); [eauto|].
    assert (Hn : ~ In (fr_name fr) path) by (intros Hi; specialize (Hrank _ Hi); lia).
    apply cyc_each_ok.
    + intros n Hs. apply mem_str_false. intros Hi. apply in_app_or in Hi.
      assert (Hnm : In n (map fr_name frs)).
      { destruct Hi as [Hi|[<-|[]]]; [auto|now apply in_map]. }
      destruct (find_fragment_in_names _ _ Hnm) as [g Eg].
      destruct (find_fragment_some _ _ _ Eg) as [_ En].
      pose proof (Hr fr n g Hin Hs Eg) as Hlt. rewrite En in Hlt.
      destruct Hi as [Hi|[<-|[]]]; [specialize (Hrank _ Hi)|]; lia.
    + intros n f c Hs Ef.
      destruct (find_fragment_some _ _ _ Ef) as [Hf En].
      pose proof (Hr fr n f Hin Hs Ef) as Hlt.
      apply IH.
      * exact Hf.
      * apply NoDup_snoc; assumption.
      * intros x Hx. apply in_app_or in Hx. destruct Hx as [Hx|[<-|[]]]; [auto|now apply in_map].
      * intros p Hp. apply in_app_or in Hp. destruct Hp as [Hp|[<-|[]]]; [specialize (Hrank _ Hp); lia|lia].
      * rewrite app_length. cbn [List.length]. lia.
Qed.

Lemma cyc_all_ok rank frs (Hr : ranked frs rank) todo checked :
  incl todo frs -> cyc_all (S (List.length frs)) frs todo checked = Some false.
Proof.
  revert checked; induction todo as [|fr r IH]; intros checked Hi; cbn [cyc_all]; [reflexivity|].
  destruct (cyc_fragment_ok rank frs Hr (S (List.length frs)) fr [] checked) as [c' E].
  - apply Hi. now left.
  - constructor.
  - intros x [].
  - intros p [].
  - lia.
  - rewrite E. apply IH. intros x Hx. apply Hi. now right.
Qed.

(* soundness of the cycle rule: an acyclic fragment graph (sharing, repeated spreads, any
   definition order) is never reported *)
Theorem cycle_rule_sound frs : acyclic frs -> cycle_rule frs = Some [].
Proof.
  intros [rank Hr]. unfold cycle_rule. rewrite (cyc_all_ok rank frs Hr frs []); [reflexivity|apply incl_refl].
Qed.

(* every fragment already checked has all its (defined) spread targets checked BEFORE it: the list
   is built by consing, so "before" is "further down the list" *)
Fixpoint closed (frs : list fragment) (checked : list string) : Prop :=
  match checked with
  | [] => True
  | c :: rest =>
      (forall f n g, find_fragment frs c = Some f -> In n (spreads_of (fr_sels f)) ->
                     find_fragment frs n = Some g -> In (fr_name g) rest) /\ closed frs rest
  end.

Definition suffix_of (a b : list string) : Prop := exists pre, b = pre ++ a.
Lemma suffix_refl a : suffix_of a a. Proof. now exists []. Qed.
Lemma suffix_trans a b c : suffix_of a b -> suffix_of b c -> suffix_of a c.
Proof. intros [p ->] [q ->]. exists (q ++ p). now rewrite app_assoc. Qed.
Lemma suffix_in a b x : suffix_of a b -> In x a -> In x b.
Proof. intros [p ->] H. apply in_or_app. now right. Qed.

Lemma find_fragment_self frs fr :
  NoDup (map fr_name frs) -> In fr frs -> find_fragment frs (fr_name fr) = Some fr.
Proof.
  induction frs as [|f frs IH]; intros Hn Hi; [destruct Hi|]. cbn [find_fragment].
  inversion Hn as [|? ? Hx Hn']. destruct Hi as [->|Hi].
  - now rewrite String.eqb_refl.
  - destruct (String.eqb (fr_name fr) (fr_name f)) eqn:E.
    + apply String.eqb_eq in E. exfalso. apply Hx. rewrite <- E. now apply in_map.
    + now apply IH.
Qed.

Section CycComplete.
Variable frs : list fragment.
Hypothesis Hnd : NoDup (map fr_name frs).

Definition rec_ok (rec : fragment -> list string -> option (list string + unit)) : Prop :=
  forall f c c', In f frs -> closed frs c -> rec f c = Some (inl c') ->
                 closed frs c' /\ In (fr_name f) c' /\ suffix_of c c'.

Lemma cyc_each_closed rec path' self names : rec_ok rec -> forall checked checked',
  closed frs checked ->
  cyc_each rec frs path' self names checked = Some (inl checked') ->
  exists c_final, checked' = self :: c_final /\ closed frs c_final /\ suffix_of checked c_final /\
                  (forall n g, In n names -> find_fragment frs n = Some g -> In (fr_name g) c_final).
Proof.
  intros Hrec. induction names as [|n r IH]; intros checked checked' Hc H; cbn [cyc_each] in H.
  - inversion H. exists checked. repeat split; [exact Hc|apply suffix_refl|intros ? ? []].
  - destruct (mem_str n path'); [discriminate|].
    destruct (find_fragment frs n) as [f|] eqn:Ef.
    + destruct (rec f checked) as [[c1|]|] eqn:Er; try discriminate.
      destruct (find_fragment_some _ _ _ Ef) as [Hf _].
      destruct (Hrec f checked c1 Hf Hc Er) as (Hc1 & Hin1 & Hs1).
      destruct (IH c1 checked' Hc1 H) as (cf & -> & Hcf & Hsf & Hall).
      exists cf. repeat split; [exact Hcf|eapply suffix_trans; eauto|].
      intros m g [<-|Hm] Hg.
      * rewrite Ef in Hg. inversion Hg; subst. eapply suffix_in; eauto.
      * eauto.
    + destruct (IH checked checked' Hc H) as (cf & -> & Hcf & Hsf & Hall).
      exists cf. repeat split; try assumption.
      intros m g [<-|Hm] Hg; [congruence| eauto].
Qed.

Lemma cyc_fragment_closed : forall fuel path, rec_ok (fun f c => cyc_fragment fuel frs f path c).
Proof.
  induction fuel as [|fuel IH]; intros path f c c' Hf Hc H; cbn [cyc_fragment] in H; [discriminate|].
  destruct (mem_str (fr_name f) c) eqn:Em.
  - inversion H; subst. repeat split; [exact Hc|now apply mem_str_iff|apply suffix_refl].
  - destruct (cyc_each_closed _ _ _ _ (IH (path ++ [fr_name f])) c c' Hc H) as (cf & -> & Hcf & Hsf & Hall).
    split; [|split].
    + split; [|exact Hcf].
      intros f' n g Hself Hn Hg. rewrite (find_fragment_self frs f Hnd Hf) in Hself. inversion Hself; subst.
      eauto.
    + now left.
    + destruct Hsf as [p ->]. exists (fr_name f :: p). reflexivity.
Qed.

Lemma cyc_all_closed fuel : forall todo checked,
  incl todo frs -> closed frs checked -> cyc_all fuel frs todo checked = Some false ->
  exists checked', closed frs checked' /\ suffix_of checked checked' /\ (forall f, In f todo -> In (fr_name f) checked').
Proof.
  induction todo as [|fr r IH]; intros checked Hi Hc H; cbn [cyc_all] in H.
  - exists checked. repeat split; [exact Hc|apply suffix_refl|intros ? []].
  - destruct (cyc_fragment fuel frs fr [] checked) as [[c1|]|] eqn:E; try discriminate.
    destruct (cyc_fragment_closed fuel [] fr checked c1 (Hi fr (or_introl eq_refl)) Hc E) as (Hc1 & Hin1 & Hs1).
    destruct (IH c1 (fun x Hx => Hi x (or_intror Hx)) Hc1 H) as (cf & Hcf & Hsf & Hall).
    exists cf. repeat split; [exact Hcf|eapply suffix_trans; eauto|].
    intros f [<-|Hf]; [eapply suffix_in; eauto|now apply Hall].
Qed.

(* rank: how many names were checked before the OLDEST occurrence of n *)
Fixpoint rk (l : list string) (n : string) : nat :=
  match l with
  | [] => O
  | _ :: r => if mem_str n r then rk r n else List.length r
  end.

Lemma rk_lt rest m : In m rest -> (rk rest m < List.length rest)%nat.
Proof.
  induction rest as [|x r IH]; [intros []|]. cbn [rk List.length].
  destruct (mem_str m r) eqn:E; [apply mem_str_iff in E; specialize (IH E); lia|lia].
Qed.

Lemma rk_skip pre rest m : In m rest -> rk (pre ++ rest) m = rk rest m.
Proof.
  intros Hi. induction pre as [|p pre IH]; [reflexivity|]. cbn [app rk].
  assert (E : mem_str m (pre ++ rest) = true) by (apply mem_str_iff, in_or_app; now right).
  now rewrite E.
Qed.

Lemma closed_at pre c rest : closed frs (pre ++ c :: rest) ->
  forall f n g, find_fragment frs c = Some f -> In n (spreads_of (fr_sels f)) -> find_fragment frs n = Some g ->
                In (fr_name g) rest.
Proof. induction pre as [|p pre IH]; intros [H1 H2]; [exact H1|now apply IH]. Qed.

Lemma last_occurrence (l : list string) n : In n l -> exists pre rest, l = pre ++ n :: rest /\ ~ In n rest.
Proof.
  induction l as [|x l IH]; [intros []|]. intros Hi.
  destruct (in_dec string_dec n l) as [Hl|Hl].
  - destruct (IH Hl) as (pre & rest & -> & Hr). exists (x :: pre), rest. split; [reflexivity|exact Hr].
  - destruct Hi as [->|Hi]; [|contradiction]. exists [], l. split; [reflexivity|exact Hl].
Qed.

Lemma rk_last pre n rest : ~ In n rest -> rk (pre ++ n :: rest) n = List.length rest.
Proof.
  intros Hr. induction pre as [|p pre IH]; cbn [app rk].
  - apply mem_str_false in Hr. now rewrite Hr.
  - assert (E : mem_str n (pre ++ n :: rest) = true) by (apply mem_str_iff, in_or_app; right; now left).
    now rewrite E.
Qed.

(* a run of the rule that reports nothing certifies acyclicity *)
Theorem cycle_rule_complete : cycle_rule frs = Some [] -> acyclic frs.
Proof.
  unfold cycle_rule. destruct (cyc_all (S (List.length frs)) frs frs []) as [[|]|] eqn:E; try discriminate.
  destruct (cyc_all_closed _ frs [] (incl_refl _) I E) as (ck & Hck & _ & Hall).
  exists (rk ck). intros f n g Hf Hn Hg.
  destruct (last_occurrence ck (fr_name f) (Hall f Hf)) as (pre & rest & -> & Hr).
  pose proof (closed_at pre (fr_name f) rest Hck f n g (find_fragment_self frs f Hnd Hf) Hn Hg) as Hin.
  rewrite (rk_last pre (fr_name f) rest Hr).
  replace (pre ++ fr_name f :: rest) with ((pre ++ [fr_name f]) ++ rest) by (now rewrite <- app_assoc).
  rewrite (rk_skip _ rest _ Hin). now apply rk_lt.
Qed.
End CycComplete.

Theorem cycle_rule_exact frs : NoDup (map fr_name frs) -> (cycle_rule frs = Some [] <-> acyclic frs).
Proof. split; [now apply cycle_rule_complete|apply cycle_rule_sound]. Qed.

Definition refusing (st : vctx) : Prop := crashed st = true \/ errs st <> [].

Lemma emit_keeps b r st : refusing st -> refusing (emit b r st).
Proof.
  unfold emit. intros H.
  destruct (aborted st || crashed st); [exact H|].
  destruct r as [es|]; [|left; reflexivity].
  destruct (b && negb match es with [] => true | _ :: _ => false end);
    (destruct H as [H|H]; [left; exact H|right; intros E; apply app_eq_nil in E; now destruct E]).
Qed.

Lemma emit_refuses b r st : aborted st = false -> r <> Some [] -> refusing (emit b r st).
Proof.
  intros Ha Hr. unfold emit. rewrite Ha. destruct (crashed st) eqn:Ec; [now left|].
  destruct r as [[|e es]|]; [now elim Hr| |now left].
  right. destruct b; intros E; apply app_eq_nil in E; destruct E as [_ E]; discriminate.
Qed.

Lemma cycle_emit_refuses frs st :
  NoDup (map fr_name frs) -> ~ acyclic frs -> aborted st = false ->
  refusing (emit true (cycle_rule frs) st).
Proof. intros Hn Hc Ha. apply emit_refuses; [exact Ha|]. intros E. exact (Hc (cycle_rule_complete frs Hn E)). Qed.
