(* The engine's field lookup in a type scope (Model/ImplValidate.v vfind_field: the declared fields with the meta-fields
   APPENDED by _inject_introspection_fields) against the specification's (Model/SpecValidate.v s_field: meta-fields by
   name, then the declared fields): for schemas whose declared field names do not begin with two underscores and whose
   query root is an object type they are the same function, EXCEPT `__typename` in an interface scope -- interfaces have no add_field, so the engine does
   not know the field there (recorded finding C07-interface-typename-arguments). *)
From Coq Require Import List String.
From TV Require Import Model.Schema Model.ImplValidate Model.SpecValidate Proofs.ListFacts.

Section Lookup.
Variable V : vschema.

Definition plain_names (fs : list field_def) : Prop := forall f, In f fs -> prefix "__" (fd_name f) = false.

Lemma find_field_plain fs n : plain_names fs -> prefix "__" n = true -> find_field fs n = None.
Proof.
  intros Hp Hn. induction fs as [|f r IH]; [reflexivity|]. cbn [find_field].
  destruct (String.eqb n (fd_name f)) eqn:E.
  - apply String.eqb_eq in E. subst n. rewrite (Hp f (or_introl eq_refl)) in Hn. discriminate.
  - apply IH. intros g Hg. apply Hp. now right.
Qed.

Definition is_interface (p : string) : bool := match vfind_type V p with Some (DInterface _) => true | _ => false end.

Theorem field_lookup_agrees p name :
  (forall ifs fs, vfind_type V p = Some (DObject ifs fs) -> plain_names fs) ->
  (String.eqb p (query_type (vs V)) = true -> exists ifs fs, vfind_type V p = Some (DObject ifs fs)) ->
  (is_interface p = true -> name <> "__typename") ->
  vfind_field V (Some p) name = s_field V (Some p) name.
Proof.
  intros Hobj Hq Hfind.
  (* only an object type can be the query root *)
  assert (Eq : (forall ifs fs, vfind_type V p <> Some (DObject ifs fs)) -> String.eqb p (query_type (vs V)) = false).
  { intros Hno. destruct (String.eqb p (query_type (vs V))); [destruct (Hq eq_refl) as (a & b & Hc); now elim (Hno a b)|reflexivity]. }
  unfold vfind_field, s_field, vfields_of, s_composite, s_type, is_interface in *.
  destruct (vfind_type V p) as [[ |values|ifds|ifs fs|fs|ms]|]; try rewrite Eq by discriminate.
  (* scalar, enum, input object: no fields but __typename on either side *)
  1-3: destruct (String.eqb name "__typename"); reflexivity.
  - pose proof (Hobj ifs fs eq_refl) as Hp. rewrite !find_field_app.
    destruct (String.eqb name "__typename") eqn:E0.
    + apply String.eqb_eq in E0. subst name. rewrite (find_field_plain fs "__typename" Hp eq_refl).
      destruct (String.eqb p (query_type (vs V))); reflexivity.
    + destruct (String.eqb p (query_type (vs V))).
      * destruct (String.eqb name "__schema") eqn:E1.
        -- apply String.eqb_eq in E1. subst name. rewrite (find_field_plain fs "__schema" Hp eq_refl). reflexivity.
        -- destruct (String.eqb name "__type") eqn:E2.
           ++ apply String.eqb_eq in E2. subst name. rewrite (find_field_plain fs "__type" Hp eq_refl). reflexivity.
           ++ destruct (find_field fs name); [reflexivity|]. cbn. rewrite E1, E2, E0. reflexivity.
      * destruct (find_field fs name); [reflexivity|]. cbn. rewrite E0. reflexivity.
  - specialize (Hfind eq_refl).
    destruct (String.eqb name "__typename") eqn:E0; [apply String.eqb_eq in E0; contradiction|reflexivity].
  - cbn [is_composite_def andb find_field]. unfold typename_field at 1. cbn [fd_name fld]. reflexivity.
  - destruct (String.eqb name "__typename"); reflexivity.
Qed.
End Lookup.
