(* Facts about Py/Prelude.v and Model/ScalarSpec.v: decimal text of integers, what int() / floor() /
   comparison make of a float.  Nothing here mentions generated code. *)
From Coq Require Import ZArith List Bool Lia SpecFloat DecimalString.
From TV Require Import Py.Prelude Model.ScalarSpec.

Lemma string_to_Z_to_string z : string_to_Z (Z_to_string z) = Some z.
Proof.
  unfold string_to_Z, Z_to_string.
  destruct z as [|p|p].
  - reflexivity.
  - rewrite NilZero.isi.
    + cbn [option_map]. f_equal. apply DecimalZ.of_to.
    + intro H. inversion H as [H1].
      pose proof (DecimalPos.Unsigned.of_to p) as E. rewrite H1 in E. discriminate E.
    + discriminate.
  - rewrite NilZero.isi.
    + cbn [option_map]. f_equal. apply DecimalZ.of_to.
    + discriminate.
    + intro H. inversion H as [H1].
      pose proof (DecimalPos.Unsigned.of_to p) as E. rewrite H1 in E. discriminate E.
Qed.

Lemma pow2_pos k : 0 < 2 ^ k \/ k < 0.
Proof. destruct (Z_lt_le_dec k 0); [lia| left; lia]. Qed.

Ltac zsimp := cbn [sf_floor sf_trunc sf_to_Z_exact cmp_Z_sf sgn sf_finite].

Lemma cmp_neq x y : x <> y -> is_eq_cmp (Some (x ?= y)) = false.
Proof. destruct (x ?= y) eqn:Hc; auto. apply Z.compare_eq in Hc. contradiction. Qed.

(* int(f) and floor(f) of a finite float: both are the integer f denotes when it denotes one, and
   neither compares equal to f when it does not *)
Lemma finite_float_rounding f : sf_finite f = true ->
  exists zt zf, sf_trunc f = Ok zt /\ sf_floor f = Ok zf /\
    match sf_to_Z_exact f with
    | Some z => zt = z /\ zf = z
    | None => is_eq_cmp (cmp_Z_sf zt f) = false /\ is_eq_cmp (cmp_Z_sf zf f) = false
    end.
Proof.
  destruct f as [s|s| |s m e]; zsimp; try discriminate.
  - exists 0, 0. auto.
  - destruct (0 <=? e) eqn:He; [eexists _, _; repeat split|].
    assert (Hd : 0 < 2 ^ (- e)) by (lia).
    set (d := 2 ^ (- e)) in *.
    set (M := Z.pos m) in *.
    pose proof (Z.div_mod M d ltac:(lia)) as Hdm.
    exists (sgn s * (M / d)), (if s then - ((M + d - 1) / d) else M / d).
    split; [reflexivity|]. split; [now destruct s|].
    destruct (M mod d =? 0) eqn:Hm.
    + split; [reflexivity|]. destruct s; cbn [sgn]; [|lia].
      assert (Hq : (M + d - 1) / d = M / d) by (symmetry; apply Z.div_unique with (d - 1); lia). lia.
    + apply Z.eqb_neq in Hm.
      assert (Hnd : forall q, M <> q * d) by (intros q ->; apply Hm, Z.mod_mul; lia).
      split; apply cmp_neq; destruct s; cbn [sgn]; intros Heq;
        [|apply (Hnd (M / d))|apply (Hnd ((M + d - 1) / d))|]; lia.
Qed.

Lemma sf_trunc_nonfinite f : sf_finite f = false -> exists e, sf_trunc f = Raise e /\ e <> OutOfFuel.
Proof. destruct f; cbn; try discriminate; eexists; split; eauto; discriminate. Qed.

Lemma in32b_spec z : in32b z = true <-> -2147483648 <= z <= 2147483647.
Proof. unfold in32b. rewrite andb_true_iff, !Z.leb_le. tauto. Qed.

Lemma cmp_Z_sf_exact x f z :
  sf_to_Z_exact f = Some z -> cmp_Z_sf x f = Some (x ?= z).
Proof.
  destruct f as [s|s| |s m e]; zsimp; try discriminate.
  - intros H; inversion H; reflexivity.
  - destruct (0 <=? e) eqn:He.
    + intros H. apply (f_equal (fun o => match o with Some x => x | None => 0 end)) in H.
      subst z. reflexivity.
    + assert (Hd : 0 < 2 ^ (- e)) by (lia).
      set (d := 2 ^ (- e)) in *.
      set (M := Z.pos m) in *.
      destruct (M mod d =? 0) eqn:Hm; [|discriminate].
      apply Z.eqb_eq in Hm.
      intros H. apply (f_equal (fun o => match o with Some x => x | None => 0 end)) in H.
      subst z. f_equal.
      pose proof (Z.div_mod M d ltac:(lia)) as Hdm.
      assert (HM : sgn s * M = (sgn s * (M / d)) * d) by (cbn [sgn]; lia).
      rewrite HM. symmetry. apply Zmult_compare_compat_r. lia.
Qed.

(* what the scalar code can observe of a float, in the three situations it distinguishes *)
Lemma float_cases f :
  (sf_finite f = false /\ exists e, sf_trunc f = Raise e /\ e <> OutOfFuel) \/
  (sf_finite f = true /\ exists z, sf_to_Z_exact f = Some z /\ sf_trunc f = Ok z /\ sf_floor f = Ok z /\
                                   forall x, cmp_Z_sf x f = Some (x ?= z)) \/
  (sf_finite f = true /\ sf_to_Z_exact f = None /\ exists zt zf, sf_trunc f = Ok zt /\ sf_floor f = Ok zf /\
                                   is_eq_cmp (cmp_Z_sf zt f) = false /\ is_eq_cmp (cmp_Z_sf zf f) = false).
Proof.
  destruct (sf_finite f) eqn:Hf; [right|left; split; [reflexivity|now apply sf_trunc_nonfinite]].
  destruct (finite_float_rounding f Hf) as (zt & zf & Ht & Hfl & H).
  destruct (sf_to_Z_exact f) as [z|] eqn:He; [left|right; split; [reflexivity|]; split; [reflexivity|]; exists zt, zf; destruct H; now repeat split].
  destruct H as [-> ->]. split; [reflexivity|]. exists z. repeat split; auto. intros x. now apply cmp_Z_sf_exact.
Qed.

Lemma sf_of_Z_raise z e : sf_of_Z z = Raise e -> e = OverflowError.
Proof.
  unfold sf_of_Z. destruct z; try discriminate.
  - destruct (sf_finite _); intros H; inversion H; reflexivity.
  - destruct (binary_normalize _ _ _ _ _); intros H; inversion H; reflexivity.
Qed.

Lemma sf_of_Z_finite z f : sf_of_Z z = Ok f -> sf_finite f = true.
Proof.
  unfold sf_of_Z. destruct z.
  - intros H; inversion H; reflexivity.
  - destruct (sf_finite _) eqn:E; intros H; inversion H; exact E.
  - destruct (binary_normalize _ _ _ _ _); intros H; inversion H; reflexivity.
Qed.
