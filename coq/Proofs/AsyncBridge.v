(* The executor written in the async calculus (Model/Async.v a_execute_operation), run with every
   awaited coroutine completing at once, IS the state-passing executor of Model/ImplExec.v: same
   result, and the events it emits are exactly the errors and invocations the state-passing model
   appends.  This transfers the theorems of C08 / C09 / C15 (proved for every program of the
   calculus) to the executor C01 / C02 / C03 are proved about.
   Both executors have the same skeleton; a program corresponds to a state-passing computation
   piece by piece: Ret / ret, bind / andthen, Emit / add_call and add_errors, Call / the resolver
   oracle (rules B_ret, B_bind, B_emit_call, B_emit_errors, B_call; B_ext changes the state-passing
   side pointwise).  A Gather has no rule of its own: run sequentially it is its children in order
   (run_seqs), and the lemmas about siblings and list items relate that list of results, merged, to
   ExecShape's `merge`.  Every function is bridged through the equations of Proofs/ExecShape.v. *)
From Coq Require Import ZArith List String Permutation.
From TV Require Import Py.Prelude Model.Schema Model.ImplInput Model.ImplExec Model.Async Proofs.AsyncProofs Proofs.ExecShape.
Import ListNotations.

Open Scope list_scope.

Section Bridge.
Variable sch : schema.
Variable doc : document.
Variable vs : vars.
Variable U : usercode.
Variable cfg : config.

Notation O := (resolver U).
Notation rs := (run_seq O).

Definition apply_events (ev : list event) (s : st) : st :=
  {| s_errors := s_errors s ++ errors_of ev; s_log := s_log s ++ calls_of ev |}.

Lemma apply_events_app a b s : apply_events (a ++ b) s = apply_events b (apply_events a s).
Proof. unfold apply_events. now rewrite errors_of_app, calls_of_app, !app_assoc. Qed.
Lemma apply_events_nil s : apply_events [] s = s.
Proof. unfold apply_events. rewrite !app_nil_r. now destruct s. Qed.
Lemma apply_events_call c ev s : apply_events (EUser (UCall c) :: ev) s = apply_events ev (add_call c s).
Proof. unfold apply_events. cbn. now rewrite <- app_assoc. Qed.

Definition out_val (r : res) : outcome pyval :=
  match r with RVal v => OVal v | RExc l => OExc l | RCrash e => OCrash e | _ => OCrash KeyError end.
Definition out_opt (r : res) : outcome (option pyval) :=
  match r with ROpt o => OVal o | RExc l => OExc l | RCrash e => OCrash e | _ => OCrash KeyError end.
Definition out_kvs (r : res) : outcome (list (string * pyval)) :=
  match r with RKVs kv => OVal kv | RExc l => OExc l | RCrash e => OCrash e | _ => OCrash KeyError end.
Definition out_list (r : res) : outcome (list pyval) :=
  match r with RVal (PList l) => OVal l | RExc l => OExc l | RCrash e => OCrash e | _ => OCrash KeyError end.

Definition val_shaped (r : res) : Prop := match r with RVal _ | RExc _ | RCrash _ => True | _ => False end.
Definition opt_shaped (r : res) : Prop := match r with ROpt _ | RExc _ | RCrash _ => True | _ => False end.
Definition kvs_shaped (r : res) : Prop := match r with RKVs _ | RExc _ | RCrash _ => True | _ => False end.
Definition list_shaped (r : res) : Prop :=
  match r with RVal (PList _) | RExc _ | RCrash _ => True | _ => False end.

(* a result with its events and a state-passing computation describe the same thing; a pair and not a
   program, because the merged results of a fan-out's children are not the run of any one program *)
Definition Br {A} (sh : res -> Prop) (out : res -> outcome A) (x : res * list event) (m : M A) : Prop :=
  sh (fst x) /\ forall s, m s = (out (fst x), apply_events (snd x) s).

Notation Bv p m := (Br val_shaped out_val (rs p) m).
Notation Bk p m := (Br kvs_shaped out_kvs (rs p) m).
Definition Bo (p : prog) (m : M (option pyval)) : Prop :=
  opt_shaped (fst (rs p)) /\ forall s, m s = (out_opt (fst (rs p)), apply_events (snd (rs p)) s).

Lemma rs_emit_errors l k :
  rs (emit_errors l k) = (fst (rs k), map (fun e => EUser (UError (finalize e))) l ++ snd (rs k)).
Proof.
  induction l as [|e l IH]; cbn [emit_errors fold_right map app]; [now destruct (rs k)|].
  fold (emit_errors l k). cbn [run_seq]. rewrite IH. reflexivity.
Qed.

Lemma errors_of_error_events l : errors_of (map (fun e => EUser (UError (finalize e))) l) = map finalize l.
Proof. induction l as [|e l IH]; [reflexivity|]. simpl. f_equal. exact IH. Qed.
Lemma calls_of_error_events l : calls_of (map (fun e => EUser (UError (finalize e))) l) = [].
Proof. induction l as [|e l IH]; [reflexivity|]. exact IH. Qed.

Lemma apply_error_events l s :
  apply_events (map (fun e => EUser (UError (finalize e))) l) s = add_errors l s.
Proof.
  unfold apply_events. now rewrite errors_of_error_events, calls_of_error_events, app_nil_r.
Qed.

Lemma run_seqs_map_fst {A} (f : A -> prog) l :
  fst (run_seqs O (map f l)) = map (fun x => fst (rs (f x))) l.
Proof. rewrite run_seqs_fst, map_map. reflexivity. Qed.

Lemma rs_sequence ps : forall k,
  rs (sequence ps k) = (fst (rs (k (fst (run_seqs O ps)))), snd (run_seqs O ps) ++ snd (rs (k (fst (run_seqs O ps))))).
Proof.
  induction ps as [|p ps IH]; intros k; [cbn; now destruct (rs (k []))|].
  cbn [sequence]. rewrite run_seq_bind, IH, run_seqs_cons. cbn [fst snd]. now rewrite app_assoc.
Qed.

(* list items: gather or one by one, the same thing when nothing suspends *)
Lemma rs_list_strategy (b : bool) ps g :
  rs (if b then Gather ps (fun l => Ret (g l)) else sequence ps (fun l => Ret (g l))) =
  (g (fst (run_seqs O ps)), snd (run_seqs O ps)).
Proof. destruct b; [|rewrite rs_sequence]; cbn; now rewrite app_nil_r. Qed.

Lemma rs_sequence_abort_nil : rs (sequence_abort []) = (RKVs [], []).
Proof. reflexivity. Qed.

Section Rules.
Context {A : Type} (sh : res -> Prop) (out : res -> outcome A).
Notation B p m := (Br sh out (rs p) m).

Lemma B_ret r : sh r -> B (Ret r) (ret (out r)).
Proof. split; [assumption|]. intros s. now rewrite apply_events_nil. Qed.

Lemma B_ext p m m' : (forall s, m' s = m s) -> B p m -> B p m'.
Proof. intros E [Hs H]. split; [exact Hs|]. intros s. now rewrite E. Qed.

Lemma B_emit_call c p m : B p m -> B (Emit (UCall c) p) (fun s => m (add_call c s)).
Proof.
  intros [Hs H]. unfold Br. cbn [run_seq]. destruct (rs p) as [r ev]. cbn [fst snd] in *.
  split; [exact Hs|]. intros s. now rewrite apply_events_call.
Qed.

Lemma B_emit_errors l p m : B p m -> B (emit_errors l p) (fun s => m (add_errors l s)).
Proof.
  intros [Hs H]. unfold Br. rewrite rs_emit_errors. cbn [fst snd]. split; [exact Hs|].
  intros s. now rewrite apply_events_app, apply_error_events.
Qed.

Lemma B_call path ptype fname source args (k : uret -> prog) (m : uret -> M A) :
  (forall u, B (k u) (m u)) -> B (Call path ptype fname source args k) (m (O path ptype fname source args)).
Proof.
  intros H. destruct (H (O path ptype fname source args)) as [Hs Hc]. cbn [run_seq].
  destruct (rs (k (O path ptype fname source args))) as [r ev].
  split; [exact Hs|]. intros s. now rewrite Hc.
Qed.
End Rules.

Lemma B_bind {A C} {shA} {outA : res -> outcome A} {shC} {outC : res -> outcome C} {p m} {f : res -> prog} {k : outcome A -> M C} :
  Br shA outA (rs p) m -> (forall r, shA r -> Br shC outC (rs (f r)) (k (outA r))) ->
  Br shC outC (rs (bind p f)) (andthen m k).
Proof.
  intros [Hs H] Hf. unfold andthen. rewrite run_seq_bind. destruct (Hf _ Hs) as [Hs' H']. split; [exact Hs'|].
  intros s. rewrite H. cbn [fst snd]. now rewrite apply_events_app.
Qed.

Lemma Bo_emit_call c p m : Bo p m -> Bo (Emit (UCall c) p) (fun s => m (add_call c s)).
Proof. exact (B_emit_call opt_shaped out_opt c p m). Qed.

Lemma Bo_call path ptype fname source args (k : uret -> prog) (m : uret -> M (option pyval)) :
  (forall u, Bo (k u) (m u)) ->
  Bo (Call path ptype fname source args k) (m (resolver U path ptype fname source args)).
Proof. exact (B_call opt_shaped out_opt path ptype fname source args k m). Qed.

Definition res_of (o : outcome pyval) : res :=
  match o with OVal v => RVal v | OExc l => RExc l | OCrash e => RCrash e end.

Lemma B_ret_of o : Bv (Ret (res_of o)) (ret o).
Proof. destruct o; apply (B_ret val_shaped out_val); exact I. Qed.

Lemma K_proceed (f : option pyval -> prog) (k : option pyval -> M (list (string * pyval))) r :
  (forall o, Bk (f o) (k o)) -> opt_shaped r ->
  Bk (match r with ROpt o => f o | other => Ret other end) (proceed (out_opt r) k).
Proof. intros H Hr. destruct r; try destruct Hr; [apply H|apply (B_ret kvs_shaped out_kvs); exact I..]. Qed.

Lemma K_lift_kvs h r : kvs_shaped r ->
  Bk (match r with RKVs kv => Ret (RKVs (h kv)) | other => Ret other end) (ret (lift h (out_kvs r))).
Proof. intros Hr. destruct r; try destruct Hr; apply (B_ret kvs_shaped out_kvs); exact I. Qed.

Lemma K_lift_dict r : kvs_shaped r ->
  Bv (match r with RKVs kv => Ret (RVal (PDict kv)) | other => Ret other end) (ret (lift PDict (out_kvs r))).
Proof. intros Hr. destruct r; try destruct Hr; apply (B_ret val_shaped out_val); exact I. Qed.

Lemma K_lift_some r : val_shaped r ->
  Bo (match r with RVal v => Ret (ROpt (Some v)) | o => Ret o end) (ret (lift Some (out_val r))).
Proof. intros Hr. destruct r; try destruct Hr; apply (B_ret opt_shaped out_opt); exact I. Qed.

Lemma handle_field_error_bridge l nodes path t :
  Bv (a_handle_field_error l nodes path t) (handle_field_error l nodes path t).
Proof.
  unfold a_handle_field_error, handle_field_error. destruct (is_non_null t).
  - apply (B_ret_of (OExc _)).
  - apply (B_emit_errors val_shaped out_val _ _ (ret (OVal PNone))), (B_ret_of (OVal PNone)).
Qed.

Lemma K_catch nodes path t p m : Bv p m ->
  Bv (bind p (fun r => match r with RExc l => a_handle_field_error l nodes path t | other => Ret other end))
     (catch nodes path t m).
Proof.
  intros H. apply (B_bind H). intros r Hr.
  destruct r; try destruct Hr; [|apply handle_field_error_bridge|]; apply (B_ret val_shaped out_val); exact I.
Qed.

Lemma merge_fields_cons k ks r l :
  opt_shaped r -> kvs_shaped (merge_fields ks l) ->
  kvs_shaped (merge_fields (k :: ks) (r :: l)) /\
  out_kvs (merge_fields (k :: ks) (r :: l)) = merge (cons_field k) (out_opt r) (out_kvs (merge_fields ks l)).
Proof.
  cbn [merge_fields]. destruct r as [|[]| | |]; destruct (merge_fields ks l); try contradiction;
    split; reflexivity.
Qed.

Lemma collect_items_cons r l :
  val_shaped r -> list_shaped (collect_item_results l) ->
  list_shaped (collect_item_results (r :: l)) /\
  out_list (collect_item_results (r :: l)) = merge cons (out_val r) (out_list (collect_item_results l)).
Proof.
  cbn [collect_item_results]. destruct r; destruct (collect_item_results l) as [[]| | | |]; try contradiction;
    split; reflexivity.
Qed.

Lemma items_bridge (aci : pyval -> list pkey -> prog) ci path :
  (forall x p, Bv (aci x p) (ci x p)) -> forall items i,
  let ps := map (fun ix : Z * pyval => aci (snd ix) (path ++ [KIdx (fst ix)])) (enumerate_from i items) in
  Br list_shaped out_list (collect_item_results (fst (run_seqs O ps)), snd (run_seqs O ps)) (complete_items ci path i items).
Proof.
  intros H. induction items as [|x xs IH]; intros i;
    [split; [exact I|]; intros s; now rewrite apply_events_nil|].
  cbn [enumerate_from map fst snd]. rewrite run_seqs_cons. destruct (H x (path ++ [KIdx i])) as [Hs Hx].
  destruct (IH (i + 1)%Z) as [IHs IHc]. destruct (collect_items_cons _ _ Hs IHs) as [Hz E].
  split; [exact Hz|]. intros s. cbn [fst snd]. rewrite items_cons. unfold andthen.
  now rewrite Hx, IHc, apply_events_app, E.
Qed.

Lemma conc_bridge (rf : string -> list fnode -> M (option pyval)) (arf : string -> list fnode -> prog) :
  (forall k ns, Bo (arf k ns) (rf k ns)) -> forall sub,
  kvs_shaped (merge_fields (map fst sub) (fst (run_seqs O (map (fun kn => arf (fst kn) (snd kn)) sub)))) /\
  forall s, exec_fields_conc rf sub s =
            (out_kvs (merge_fields (map fst sub) (fst (run_seqs O (map (fun kn => arf (fst kn) (snd kn)) sub)))),
             apply_events (snd (run_seqs O (map (fun kn => arf (fst kn) (snd kn)) sub))) s).
Proof.
  intros Harf. induction sub as [|[k ns] rest [IHs IH]]; [split; [exact I|]; intros s; now rewrite apply_events_nil|].
  cbn [map fst snd]. rewrite run_seqs_cons. destruct (Harf k ns) as [Hs Hk]. cbn [fst snd].
  destruct (merge_fields_cons k _ _ _ Hs IHs) as [Hz E]. split; [exact Hz|].
  intros s. rewrite conc_cons. unfold andthen. now rewrite Hk, IH, apply_events_app, E.
Qed.

(* the slots the first pass leaves empty are exactly the deferred fields (ExecCalls.slots_ok is the same relation, and
   ExecCalls.pass1_slots proves it of mixed_pass1) *)
Definition aligned (isc : string -> list fnode -> bool) (fs : fields) (slots : list (option (option pyval))) : Prop :=
  Forall2 (fun kn slot => match slot with None => isc (fst kn) (snd kn) = true | Some _ => isc (fst kn) (snd kn) = false end) fs slots.

Section Siblings.
Variable rf : string -> list fnode -> M (option pyval).
Variable arf : string -> list fnode -> prog.
Hypothesis H : forall k ns, Bo (arf k ns) (rf k ns).

Lemma seq_bridge sub : Bk (sequence_abort (map (fun kn => (fst kn, arf (fst kn) (snd kn))) sub)) (exec_fields_seq rf sub).
Proof.
  induction sub as [|[k ns] rest IH]; [apply (B_ret kvs_shaped out_kvs (RKVs [])); exact I|].
  eapply B_ext; [apply seq_cons|].
  apply (B_bind (H k ns)). intros r Hr. apply K_proceed; [|exact Hr]. intros o.
  apply (B_bind IH). intros r' Hr'. apply (K_lift_kvs (cons_field k o)), Hr'.
Qed.

(* a slot filled by the first pass merges like an awaited ROpt *)
Lemma pass2_bridge isc fs slots : aligned isc fs slots ->
  let cs := map (fun kn => arf (fst kn) (snd kn)) (filter (fun kn => isc (fst kn) (snd kn)) fs) in
  Br kvs_shaped out_kvs (merge_fields (map fst fs) (interleave slots (fst (run_seqs O cs))), snd (run_seqs O cs))
     (mixed_pass2 rf fs slots).
Proof.
  induction 1 as [|[k ns] slot rest srest Hs Ha [IHs IH]];
    [split; [exact I|]; intros s; now rewrite apply_events_nil|].
  cbn [map filter fst snd] in *. destruct slot as [o|]; rewrite Hs; cbn [map interleave].
  - destruct (merge_fields_cons k _ (ROpt o) _ I IHs) as [Hz E]. split; [exact Hz|].
    intros s. cbn [fst snd]. rewrite pass2_cons. unfold andthen, ret. now rewrite IH, E.
  - rewrite run_seqs_cons. destruct (H k ns) as [Hr Hk].
    destruct (merge_fields_cons k _ _ _ Hr IHs) as [Hz E]. split; [exact Hz|].
    intros s. cbn [fst snd]. rewrite pass2_cons. unfold andthen. now rewrite Hk, IH, apply_events_app, E.
Qed.

Lemma pass1_bridge isc fs : forall (k : list (option (option pyval)) -> prog) mk,
  (forall slots, aligned isc fs slots -> Bk (k slots) (mk slots)) ->
  Bk (a_mixed_pass1 isc arf fs k) (andthen (mixed_pass1 isc rf fs) (fun r => proceed r mk)).
Proof.
  induction fs as [|[key ns] rest IH]; intros k mk Hk; cbn [a_mixed_pass1]; [apply Hk; constructor|].
  eapply B_ext; [intros s; unfold andthen; rewrite pass1_cons; reflexivity|]. destruct (isc key ns) eqn:Ec.
  - eapply B_ext; [|apply (IH (fun slots => k (None :: slots)) (fun slots => mk (None :: slots)))].
    + intros s. unfold andthen. now destruct (mixed_pass1 isc rf rest s) as [[]].
    + intros slots Ha. apply Hk. now constructor.
  - (* under B_ext the continuation cannot be inferred: it is given *)
    eapply B_ext; [|apply (B_bind
        (k := fun r => proceed r (fun o => andthen (mixed_pass1 isc rf rest) (fun r' => proceed r' (fun slots => mk (Some o :: slots)))))
        (H key ns)); intros r Hr; apply K_proceed; [|exact Hr];
      intros o; apply (IH (fun slots => k (Some o :: slots)) (fun slots => mk (Some o :: slots)));
      intros slots Ha; apply Hk; now constructor].
    intros s. unfold andthen, proceed. destruct (rf key ns s) as [[] s1]; try reflexivity.
    now destruct (mixed_pass1 isc rf rest s1) as [[]].
Qed.

Lemma mixed_bridge isc fs : Bk (a_exec_fields_mixed isc arf fs) (exec_fields_mixed isc rf fs).
Proof.
  eapply B_ext; [apply mixed_eq|]. apply pass1_bridge. intros slots Ha.
  rewrite (rs_list_strategy true). now apply pass2_bridge.
Qed.
End Siblings.

Definition arf_bridge (arf : arfun) (rf : rfun) : Prop :=
  forall otype value opath k ns, Bo (arf otype value opath k ns) (rf otype value opath k ns).

(* the leaves, in the shape of leaf_coercer_eq *)
Definition a_abstract_leaf (arf : arfun) (ptype : string) (fd : field_def) (nodes : list fnode) (path : list pkey)
           (n : string) (v : pyval) (lp : list pkey) : prog :=
  let p := match abstract_type sch U ptype fd nodes path n v with
           | OVal rt => a_exec_sub sch doc vs cfg arf nodes rt v lp
           | OExc l => Ret (RExc l)
           | OCrash e => Ret (RCrash e)
           end in
  match type_resolver_kind U n ptype (fd_name fd) with
  | TRDefault => p
  | TRCustom => Emit (UCall (CTypeResolver path n v)) p
  end.

Lemma a_leaf_eq arf ptype fd nodes path n v lp :
  a_leaf sch doc vs U cfg arf ptype fd nodes path n v lp =
  match find_type sch n with
  | Some (DInput _) | None => Ret (RExc [engine_err "no-output-coercer"])
  | Some k =>
      if is_none v then Ret (RVal PNone)
      else match k with
           | DScalar => Ret (res_of (scalar_leaf sch n v))
           | DEnum values => Ret (res_of (enum_leaf values v))
           | DObject _ _ => a_exec_sub sch doc vs cfg arf nodes n v lp
           | _ => a_abstract_leaf arf ptype fd nodes path n v lp
           end
  end.
Proof.
  (* generalize first: destructing find_type in place re-checks the twelve-fold copies of each `| _ =>` branch *)
  unfold a_leaf. generalize (find_type sch n). intros [t|]; [destruct t as [ |values|ifs|ifs fs|fs|ms]|reflexivity].
  (* interface and union *)
  5,6: rewrite match_none; unfold a_abstract_leaf, abstract_type;
    (destruct (type_resolver_kind U n ptype (fd_name fd)); [|destruct (type_resolver U path n v); [|reflexivity]]);
    now destruct (resolve_runtime_type sch n _ nodes).
  - rewrite match_none. destruct (is_none v); [reflexivity|]. unfold scalar_leaf.
    destruct (scalars sch n) as [ops|]; [|reflexivity].
    destruct (s_output ops v) as [r|[]]; try reflexivity. now destruct (is_undef r).
  - destruct v; try reflexivity. cbn. now destruct (mem_str s values).
  - reflexivity.
  - apply match_none.
Qed.

Section Field.
Variable arf : arfun.
Variable rf : rfun.
Hypothesis Hrf : arf_bridge arf rf.

Lemma exec_sub_bridge nodes otype value opath :
  Bv (a_exec_sub sch doc vs cfg arf nodes otype value opath) (exec_sub sch doc vs cfg rf nodes otype value opath).
Proof.
  eapply B_ext; [apply exec_sub_eq|]. unfold a_exec_sub.
  destruct (collect_subfields sch doc vs COLLECT_FUEL otype nodes [] []) as [sub|]; [|apply (B_ret_of (OCrash _))].
  eapply (B_bind (mixed_bridge _ _ (fun k ns => Hrf otype value opath k ns) _ sub)).
  apply K_lift_dict.
Qed.

Variable ptype : string.
Variable fd : field_def.
Variable nodes : list fnode.
Variable fpath : list pkey.
Variable lc : bool.

Lemma abstract_leaf_bridge n v lp :
  Bv (a_abstract_leaf arf ptype fd nodes fpath n v lp) (abstract_leaf sch doc vs U cfg rf ptype fd nodes fpath n v lp).
Proof.
  unfold a_abstract_leaf, abstract_leaf, abstract_state.
  assert (Hp : Bv (match abstract_type sch U ptype fd nodes fpath n v with
                   | OVal rt => a_exec_sub sch doc vs cfg arf nodes rt v lp
                   | OExc l => Ret (RExc l)
                   | OCrash e => Ret (RCrash e)
                   end)
                  (fun s => match abstract_type sch U ptype fd nodes fpath n v with
                            | OVal rt => exec_sub sch doc vs cfg rf nodes rt v lp s
                            | OExc l => ret (OExc l) s
                            | OCrash e => ret (OCrash e) s
                            end))
    by (destruct (abstract_type sch U ptype fd nodes fpath n v);
        [apply exec_sub_bridge|apply (B_ret_of (OExc _))|apply (B_ret_of (OCrash _))]).
  (* a custom type resolver is an invocation: the same computation from the state with the call logged *)
  destruct (type_resolver_kind U n ptype (fd_name fd)); [exact Hp|exact (B_emit_call val_shaped out_val _ _ _ Hp)].
Qed.

Lemma leaf_bridge n v lp :
  Bv (a_leaf sch doc vs U cfg arf ptype fd nodes fpath n v lp) (leaf_coercer sch doc vs U cfg rf ptype fd nodes fpath n v lp).
Proof.
  rewrite a_leaf_eq. eapply B_ext; [apply leaf_coercer_eq|].
  destruct (find_type sch n) as [[ |values|ins|ifs fs|ifields|ms]|];
    [| |apply (B_ret_of (OExc _))| | | |apply (B_ret_of (OExc _))];
    (destruct (is_none v); [apply (B_ret_of (OVal PNone))|]);
    [apply B_ret_of|apply B_ret_of|apply exec_sub_bridge|apply abstract_leaf_bridge..].
Qed.

Notation aco := (a_coerce_output nodes (a_leaf sch doc vs U cfg arf ptype fd nodes fpath) lc).
Notation co := (coerce_output nodes (leaf_coercer sch doc vs U cfg rf ptype fd nodes fpath)).

Lemma completed_bridge t x ip : (forall v p, Bv (aco t v p) (co t v p)) ->
  Bv (match is_exc_value x with Some e => Ret (RExc [e]) | None => aco t x ip end) (completed nodes (leaf_coercer sch doc vs U cfg rf ptype fd nodes fpath) t x ip).
Proof. intros IH. unfold completed. destruct (is_exc_value x); [apply (B_ret_of (OExc _))|apply IH]. Qed.

Lemma coerce_output_bridge t : forall v p, Bv (aco t v p) (co t v p).
Proof.
  (* a list is items_bridge over the per-item catch of `completed`, gather and one-by-one being the same
     sequential run (rs_list_strategy); Non-Null binds the induction hypothesis and turns null into the exception *)
  induction t as [n|t IH|t IH]; intros v p; cbn [a_coerce_output].
  - apply leaf_bridge.
  - eapply B_ext; [intros s; apply coerce_output_list|].
    destruct v; try apply (B_ret_of (OVal PNone)); try apply (B_ret_of (OExc _)).
    destruct (items_bridge
                (fun x q => bind (match is_exc_value x with Some e => Ret (RExc [e]) | None => aco t x q end)
                                 (fun r => match r with RExc l0 => a_handle_field_error l0 nodes q t | other => Ret other end))
                _ p (fun x q => K_catch nodes q t _ _ (completed_bridge t x q IH)) l 0%Z) as [Hs Hc].
    unfold Br, andthen, ret. rewrite rs_list_strategy. cbn [fst snd] in *.
    split; [|intros s; rewrite Hc]; destruct (collect_item_results _) as [[]| | | |]; try destruct Hs; reflexivity.
  - eapply B_ext; [intros s; apply coerce_output_nonnull|]. apply (B_bind (IH v p)).
    intros r Hr. destruct r as [[]| | | |]; try destruct Hr; apply (B_ret val_shaped out_val); exact I.
Qed.
End Field.

(* complete_value_catching_error at the field level *)
Lemma K_complete nodes path t p m : Bv p m ->
  Bo (bind p (fun r => match r with
                       | RExc l => bind (a_handle_field_error l nodes path t)
                                        (fun r' => match r' with RVal v => Ret (ROpt (Some v)) | o => Ret o end)
                       | RVal v => Ret (ROpt (Some v))
                       | other => Ret other
                       end))
     (andthen (catch nodes path t m) (fun r => ret (lift Some r))).
Proof.
  intros H. eapply B_ext; [apply andthen_assoc|]. apply (B_bind H).
  intros r Hr. destruct r; try destruct Hr.
  - apply (B_ret opt_shaped out_opt (ROpt (Some v))); exact I.
  - apply (B_bind (handle_field_error_bridge l nodes path t)), K_lift_some.
  - apply (B_ret opt_shaped out_opt (RCrash e)); exact I.
Qed.

Lemma complete_field_bridge arf rf ptype fd nodes path (raw : outcome pyval) :
  arf_bridge arf rf ->
  Bo (bind (match res_of raw with
            | RVal v => match is_exc_value v with
                        | Some e => Ret (RExc [e])
                        | None => a_coerce_output nodes (a_leaf sch doc vs U cfg arf ptype fd nodes path)
                                    (match field_list cfg ptype (fd_name fd) with Some b => b | None => list_concurrently cfg end)
                                    (fd_type fd) v path
                        end
            | other => Ret other
            end)
           (fun r => match r with
                     | RExc l => bind (a_handle_field_error l nodes path (fd_type fd))
                                      (fun r' => match r' with RVal v => Ret (ROpt (Some v)) | o => Ret o end)
                     | RVal v => Ret (ROpt (Some v))
                     | other => Ret other
                     end))
     (complete_field sch doc vs U cfg rf ptype fd nodes path raw).
Proof.
  intros Hrf. eapply B_ext; [apply complete_field_eq|]. apply K_complete. destruct raw as [v|l|e]; cbn [res_of].
  - apply completed_bridge, coerce_output_bridge, Hrf.
  - apply (B_ret_of (OExc _)).
  - apply (B_ret_of (OCrash _)).
Qed.

Lemma resolve_field_body_bridge arf rf :
  arf_bridge arf rf -> arf_bridge (a_resolve_field_body sch doc vs U cfg arf) (resolve_field_body sch doc vs U cfg rf).
Proof.
  intros Hrf ptype source ppath key [|node rest]; [apply (B_ret opt_shaped out_opt (RCrash KeyError)); exact I|].
  eapply B_ext; [apply resolve_field_body_eq|]. unfold a_resolve_field_body, resolve_value.
  destruct (get_field_definition sch ptype (fn_name node)) as [fd|]; [|apply (B_ret opt_shaped out_opt (ROpt None)); exact I].
  pose proof (fun raw => complete_field_bridge arf rf ptype fd (node :: rest) (ppath ++ [KName key]) raw Hrf) as Hc.
  destruct (String.eqb (fn_name node) "__typename"); [exact (Hc (OVal (PStr ptype)))|].
  destruct (coerce_arguments sch 20 (fd_args fd) (fn_loc node) (fn_args node) vs) as [[args [|ae aes]]|e].
  - destruct (has_resolver U ptype (fd_name fd)); [|exact (Hc (OVal (default_field_resolver source (fd_name fd))))].
    eapply B_ext; [|apply (B_emit_call opt_shaped out_opt), (B_call opt_shaped out_opt _ _ _ _ _ _
        (fun u => complete_field sch doc vs U cfg rf ptype fd (node :: rest) (ppath ++ [KName key])
                    (match u with URet v => OVal v | URaise msg _ ext => OExc [user_raise msg ext] end)))].
    + intros s. cbv beta. now destruct (resolver U _ _ _ _ _).
    + intros [v|msg g ext]; [exact (Hc (OVal v))|exact (Hc (OExc [user_raise msg ext]))].
  - exact (Hc (OExc (map (fun ae : aerr => {| p_path := None; p_locs := Some [snd ae]; p_msg := MEngine "argument"; p_ext := false |}) (ae :: aes)))).
  - apply (B_ret opt_shaped out_opt (RCrash e)); exact I.
Qed.

Theorem resolve_field_bridge fuel : arf_bridge (a_resolve_field sch doc vs U cfg fuel) (resolve_field sch doc vs U cfg fuel).
Proof.
  induction fuel as [|fuel IH]; [intros ? ? ? ? ?; apply (B_ret opt_shaped out_opt (RCrash OutOfFuel)); exact I|].
  now apply resolve_field_body_bridge.
Qed.

Definition finish_prog (r : res) : prog :=
  match r with
  | RKVs kv => Ret (RVal (PDict kv))
  | RExc l => emit_errors l (Ret (RVal PNone))
  | other => Ret other
  end.

Lemma finish_bridge p m :
  Bk p m -> response_of (fst (rs (bind p finish_prog))) (snd (rs (bind p finish_prog))) = finish (m st0).
Proof.
  intros [Hx Hm]. rewrite run_seq_bind, Hm. destruct (fst (rs p)) as [v|o|kv|l|e]; try destruct Hx; cbn [finish_prog out_kvs finish].
  - now rewrite app_nil_r.
  - rewrite rs_emit_errors. rewrite app_nil_r.
    cbn.
    now rewrite errors_of_app, calls_of_app, errors_of_error_events, calls_of_error_events, app_nil_r.
  - reflexivity.
Qed.

Theorem execute_operation_bridge op root :
  response_of (fst (rs (a_execute_operation sch doc vs U cfg op root)))
              (snd (rs (a_execute_operation sch doc vs U cfg op root))) =
  execute_operation sch doc vs U cfg op root.
Proof.
  rewrite execute_operation_eq. unfold a_execute_operation, run_operation.
  destruct (root_type_of sch (o_kind op)) as [rt|]; [|reflexivity].
  destruct (collect_fields sch doc vs COLLECT_FUEL rt (o_sels op) [] []) as [[fs visited]|]; [|reflexivity].
  assert (Hk : forall k ns, Bo (a_resolve_field sch doc vs U cfg EXEC_FUEL rt root [] k ns)
                               (resolve_field sch doc vs U cfg EXEC_FUEL rt root [] k ns))
    by (apply resolve_field_bridge).
  destruct (o_kind op); apply finish_bridge; first [exact (mixed_bridge _ _ Hk _ fs)|exact (seq_bridge _ _ Hk fs)].
Qed.

Theorem scheduled_response op root picks r evs :
  run_sched O picks (a_execute_operation sch doc vs U cfg op root) = Some (PDone r, evs) ->
  exists ev0, Permutation evs ev0 /\ response_of r ev0 = execute_operation sch doc vs U cfg op root.
Proof.
  intros H. destruct (schedule_independence _ _ _ _ _ H) as [-> Hp].
  eexists. split; [exact Hp|apply execute_operation_bridge].
Qed.

End Bridge.
