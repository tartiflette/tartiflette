(* The validation walk as a PURE function of the document: whatever the shared context holds, the errors
   the walk appends below a selection (and whether a rule raises) depend only on the type scope the
   selection is written in.  `sel_errs scope path s` is that function, defined by recursion on the
   selection with the scope handed down exactly as the walk's parent_type bookkeeping does; the theorem
   `walk_selection_obs` shows the walk computes it from EVERY state: a state already refused by an
   aborting rule or a raising rule stays as it is, a live state gets exactly these errors appended, in
   this order, or ends crashed when one of the rules raises. *)
From Coq Require Import List String Bool.
From TV Require Import Model.Schema Model.ImplValidate Proofs.ListFacts Proofs.ValidateFrame.
From RecordUpdate Require Import RecordSet.
Import ListNotations.
Import RecordSetNotations.

Section Walk.
Variable V : vschema.

(* sequencing of outcomes: None = a rule raised *)
Definition seq2 (a b : option (list verror)) : option (list verror) :=
  match a, b with Some x, Some y => Some (x ++ y) | _, _ => None end.
Fixpoint seqs (l : list (option (list verror))) : option (list verror) :=
  match l with [] => Some [] | a :: r => seq2 a (seqs r) end.

Lemma seq2_nil_l a : seq2 (Some []) a = a.
Proof. destruct a; reflexivity. Qed.
Lemma seq2_nil_r a : seq2 a (Some []) = a.
Proof. destruct a; cbn; [now rewrite app_nil_r|reflexivity]. Qed.
Lemma seq2_assoc a b c : seq2 (seq2 a b) c = seq2 a (seq2 b c).
Proof. destruct a, b, c; cbn; try reflexivity. now rewrite app_assoc. Qed.

(* a loop that appends each outcome to an accumulator, a raise absorbing *)
Lemma fold_seqs {X} (step : option (list verror) -> X -> option (list verror)) (c : X -> option (list verror)) l :
  (forall acc x, step acc x = seq2 acc (c x)) -> fold_left step l (Some []) = seqs (map c l).
Proof.
  intros H. rewrite <- (seq2_nil_l (seqs (map c l))). generalize (@Some (list verror) []).
  induction l as [|x r IH]; intros acc; cbn [fold_left map seqs]; [now rewrite seq2_nil_r|].
  now rewrite IH, H, seq2_assoc.
Qed.

Lemma seq2_quiet a b : seq2 a b = Some [] <-> a = Some [] /\ b = Some [].
Proof.
  destruct a as [x|], b as [y|]; split; try (intros [H1 H2]; discriminate); try discriminate.
  - intros H. inversion H as [H']. apply app_eq_nil in H'. destruct H' as [-> ->]. split; reflexivity.
  - intros [H1 H2]. inversion H1; inversion H2. reflexivity.
Qed.

Lemma seqs_quiet l : seqs l = Some [] <-> Forall (fun r => r = Some []) l.
Proof.
  induction l as [|a l IH]; cbn [seqs]; [split; [constructor|reflexivity]|].
  rewrite seq2_quiet, IH. split; [now constructor|intros H; inversion H; auto].
Qed.
Lemma seqs_map_quiet {X} (c : X -> option (list verror)) l : seqs (map c l) = Some [] <-> forall x, In x l -> c x = Some [].
Proof. now rewrite seqs_quiet, Forall_map, Forall_forall. Qed.
Lemma seqs_all_nil l errs : seqs l = Some errs -> (forall e, In (Some e) l -> e = []) -> errs = [].
Proof.
  revert errs. induction l as [|a l IH]; intros errs H Hall; cbn [seqs] in H; [now injection H as <-|].
  destruct a as [e|], (seqs l) as [es|]; try discriminate. injection H as <-.
  rewrite (Hall e (or_introl eq_refl)), (IH es eq_refl (fun e' He' => Hall e' (or_intror He'))). reflexivity.
Qed.

Lemma seqs_some {X} (f : X -> list verror) l : seqs (map (fun x => Some (f x)) l) = Some (flat_map f l).
Proof. induction l as [|x l IH]; [reflexivity|]. cbn [map seqs flat_map]. now rewrite IH. Qed.

(* what one step does to the part of the context the verdict is read from *)
Definition obs (st st' : vctx) (F : option (list verror)) : Prop :=
  aborted st' = aborted st /\
  (if aborted st || crashed st then crashed st' = crashed st /\ errs st' = errs st
   else match F with
        | Some E => crashed st' = false /\ errs st' = errs st ++ E
        | None => crashed st' = true
        end).

Lemma obs_refl st : obs st st (Some []).
Proof. split; [reflexivity|]. destruct (aborted st || crashed st) eqn:E; [split; reflexivity|].
       apply orb_false_elim in E. destruct E as [_ E]. split; [exact E|now rewrite app_nil_r]. Qed.

Lemma obs_trans {st st1 st2 F1 F2} : obs st st1 F1 -> obs st1 st2 F2 -> obs st st2 (seq2 F1 F2).
Proof.
  intros [A1 H1] [A2 H2]. split; [congruence|]. rewrite A1 in H2.
  destruct (aborted st).
  - destruct H1 as [C1 E1]. destruct H2 as [C2 E2]. split; congruence.
  - destruct (crashed st).
    + destruct H1 as [C1 E1]. rewrite C1 in H2. destruct H2 as [C2 E2]. split; congruence.
    + destruct F1 as [x|].
      * destruct H1 as [C1 E1]. rewrite C1 in H2. destruct F2 as [y|].
        -- destruct H2 as [C2 E2]. split; [exact C2|]. now rewrite E2, E1, app_assoc.
        -- exact H2.
      * rewrite H1 in H2. destruct H2 as [C2 _]. congruence.
Qed.

Lemma emit_obs r st : obs st (emit false r st) r.
Proof.
  unfold obs, emit. destruct (aborted st || crashed st) eqn:E; [repeat split|].
  apply orb_false_elim in E. destruct E as [Ea Ec].
  destruct r as [es|]; [split; [reflexivity|split; [exact Ec|reflexivity]]|split; reflexivity].
Qed.
Lemma emit_ok_obs es st : obs st (emit_ok es st) (Some es).
Proof. apply emit_obs. Qed.

(* steps that only touch the bookkeeping; a record update of another field is seen through by conversion *)
Definition same_verdict (st st' : vctx) : Prop :=
  aborted st' = aborted st /\ crashed st' = crashed st /\ errs st' = errs st.
Lemma set_same_in_directive b st : same_verdict st (st <| in_directive := b |>).
Proof. repeat split. Qed.
Lemma set_pt_same p st : same_verdict st (st <| parent_type := p |>).
Proof. repeat split. Qed.
Lemma upd_scope_same f st : same_verdict st (upd_scope f st).
Proof. unfold upd_scope. destruct (in_operation st); repeat split. Qed.
Lemma obs_same {st st1 st2 F} : obs st st1 F -> same_verdict st1 st2 -> obs st st2 F.
Proof. unfold obs. intros H (A & C & E). now rewrite A, C, E. Qed.
Lemma obs_same_l st st1 {st2 F} : same_verdict st st1 -> obs st1 st2 F -> obs st st2 F.
Proof. unfold obs. intros (A & C & E). now rewrite A, C, E. Qed.
Notation same := (conj eq_refl (conj eq_refl eq_refl)).

Lemma fold_obs {X} (step : X -> vctx -> vctx) (out : X -> option (list verror)) l :
  (forall x st, In x l -> obs st (step x st) (out x)) ->
  forall st, obs st (fold_left (fun st x => step x st) l st) (seqs (map out l)).
Proof.
  induction l as [|x l IH]; intros H st; [apply obs_refl|].
  refine (obs_trans (H x st (or_introl eq_refl)) (IH _ _)). intros y st' Hy. apply H. now right.
Qed.
Lemma fold_obs_some {X} (step : X -> vctx -> vctx) (out : X -> list verror) l :
  (forall x st, In x l -> obs st (step x st) (Some (out x))) ->
  forall st, obs st (fold_left (fun st x => step x st) l st) (Some (flat_map out l)).
Proof. rewrite <- seqs_some. now apply fold_obs. Qed.

(* values: rule 5.6.3 (input object field uniqueness) fires inside literals *)
Fixpoint value_errs (path : opath) (v : lit) {struct v} : list verror :=
  match v with
  | LList _ items => (fix go (xs : list lit) : list verror := match xs with [] => [] | x :: r => value_errs path x ++ go r end) items
  | LObj _ fields =>
      (fix go (xs : list (string * lit)) : list verror :=
         match xs with [] => [] | (_, x) :: r => value_errs path x ++ go r end) fields ++
      match fields with
      | [] => []
      | _ => uniq_errors "input-object-field-uniqueness" fst (fun kv => lit_loc (snd kv)) path fields
      end
  | _ => []
  end.

Lemma value_errs_obj path l fields :
  value_errs path (LObj l fields) =
  flat_map (fun kv => value_errs path (snd kv)) fields ++
  match fields with
  | [] => []
  | _ => uniq_errors "input-object-field-uniqueness" fst (fun kv => lit_loc (snd kv)) path fields
  end.
Proof.
  cbn [value_errs]. f_equal. induction fields as [|[k x] r IH]; [reflexivity|]. now rewrite IH.
Qed.

Lemma walk_value_obs path v : forall st, obs st (walk_value path v st) (Some (value_errs path v)).
Proof.
  induction v as [l n| | | | | | |l items IH|l fields IH] using lit_ind2; intros st; try apply obs_refl.
  - unfold walk_value, record_var. destruct (in_vardefs st); [apply obs_refl|].
    exact (obs_same (obs_refl st) (upd_scope_same _ st)).
  - apply (fold_obs_some (walk_value path)). intros x st0 Hx. exact (proj1 (Forall_forall _ _) IH x Hx st0).
  - rewrite walk_value_obj, value_errs_obj. destruct fields as [|kv r]; [apply obs_refl|].
    refine (obs_trans (fold_obs_some (fun kv => walk_value path (snd kv)) _ _ _ st) (emit_ok_obs _ _)).
    intros x st0 Hx. exact (proj1 (Forall_forall _ _) IH x Hx st0).
Qed.

Definition arguments_errs (path : opath) (args : list argument) : list verror :=
  match args with
  | [] => []
  | _ => flat_map (fun a => value_errs path (a_value a)) args ++ uniq_errors "argument-uniqueness" a_name a_loc path args
  end.

Lemma walk_argument_obs path a st : obs st (walk_argument path a st) (Some (value_errs path (a_value a))).
Proof.
  unfold walk_argument. pose proof (walk_value_obs path (a_value a) st) as O.
  destruct (a_value a); try exact O. exact (obs_same O (upd_scope_same _ _)).
Qed.

Lemma walk_arguments_obs path args st : obs st (walk_arguments path args st) (Some (arguments_errs path args)).
Proof.
  destruct args as [|a r]; [apply obs_refl|].
  exact (obs_trans (fold_obs_some (walk_argument path) _ _ (fun x st0 _ => walk_argument_obs path x st0) st) (emit_ok_obs _ _)).
Qed.

Definition directive_errs (path : opath) (d : directive) : option (list verror) :=
  let defs := match vfind_directive V (d_name d) with Some dd => Some (dd_args dd) | None => None end in
  seqs [Some (arguments_errs path (dir_args d));
        vct_arguments V path defs (dir_args d);
        Some (argument_names_errors path defs (dir_args d));
        Some (required_arguments_errors path defs (d_loc d) (dir_args d));
        Some (match defs with None => [mkerr "directives-are-defined" path [d_loc d]] | Some _ => [] end)].

Lemma walk_directive_obs path d st : obs st (walk_directive V path d st) (directive_errs path d).
Proof.
  unfold walk_directive, directive_errs.
  set (st1 := st <| in_directive := true |> <| cur_directive := d_name d |>).
  refine (obs_same_l st st1 same (obs_trans (walk_arguments_obs path (dir_args d) st1) _)).
  set (st2 := walk_arguments path (dir_args d) st1). set (st3 := st2 <| in_directive := false |>).
  refine (obs_same_l st2 st3 same _). cbn [seqs].
  exact (obs_trans (emit_obs _ _) (obs_trans (emit_ok_obs _ _) (obs_trans (emit_ok_obs _ _)
        (obs_trans (emit_ok_obs _ _) (obs_refl _))))).
Qed.

Definition directives_errs (path : opath) (ds : list directive) : option (list verror) :=
  match ds with
  | [] => Some []
  | _ => seq2 (seqs (map (directive_errs path) ds))
              (Some (uniq_errors "directives-are-unique-per-location" d_name d_loc path ds))
  end.

Lemma walk_directives_obs path ds st : obs st (walk_directives V path ds st) (directives_errs path ds).
Proof.
  destruct ds as [|d r]; [apply obs_refl|].
  exact (obs_trans (fold_obs (walk_directive V path) _ _ (fun x st0 _ => walk_directive_obs path x st0) st) (emit_ok_obs _ _)).
Qed.

(* the rules of one field, given the scope it is selected in *)
Definition field_rules_errs (scope : option string) (path : opath) (l : loc) (name : string) (args : list argument)
           (dirs : list directive) (has_sels : bool) : option (list verror) :=
  let rt := field_reduced_type V scope name in
  let defs := match vfind_field V scope name with Some f => Some (fd_args f) | None => None end in
  seqs [Some (valid_locations_errors V path "FIELD" l dirs);
        Some (if String.eqb name "__typename" then [] else
              match rt with None => [mkerr "field-selections-on-objects-interfaces-and-unions-types" path [l]] | Some _ => [] end);
        Some (match rt with
              | None => []
              | Some d => if negb has_sels && is_composite_def d then [mkerr "leaf-field-selections" path [l]]
                          else if has_sels && negb (is_composite_def d) then [mkerr "leaf-field-selections" path [l]]
                          else []
              end);
        vct_arguments V path defs args;
        Some (argument_names_errors path defs args);
        Some (required_arguments_errors path defs l args)].

Lemma field_rules_obs path l name args dirs hs st :
  obs st (field_rules V path l name args dirs hs st) (field_rules_errs (parent_type st) path l name args dirs hs).
Proof.
  exact (obs_trans (emit_ok_obs _ _) (obs_trans (emit_ok_obs _ _) (obs_trans (emit_ok_obs _ _)
        (obs_trans (emit_obs _ _) (obs_trans (emit_ok_obs _ _) (obs_trans (emit_ok_obs _ _) (obs_refl _))))))).
Qed.

Definition type_condition_errs (path : opath) (l : loc) (tc : option string) : list verror :=
  (match tc with
   | Some t => if has_type V t then [] else [mkerr "fragment-spread-type-existence" path [l]]
   | None => [] end) ++
  (match tc with
   | Some t => match vfind_type V t with
               | Some d => if is_composite_def d then [] else [mkerr "fragments-on-composite-types" path [l]]
               | None => [] end
   | None => [] end).

Fixpoint sel_errs (scope : option string) (path : opath) (s : selection) {struct s} : option (list verror) :=
  match s with
  | SField l alias name args dirs sels =>
      let path' := path_push path name in
      let inner := field_type_name V scope name in
      seq2 (Some (arguments_errs path' args))
        (seq2 (directives_errs path' dirs)
           (seq2 ((fix go (xs : list selection) : option (list verror) :=
                     match xs with [] => Some [] | x :: r => seq2 (sel_errs inner path' x) (go r) end) sels)
                 (field_rules_errs scope path' l name args dirs (match sels with [] => false | _ => true end))))
  | SSpread l name dirs =>
      seq2 (directives_errs path dirs) (Some (valid_locations_errors V path "FRAGMENT_SPREAD" l dirs))
  | SInline l tc dirs sels =>
      let inner := match tc with Some t => Some t | None => scope end in
      seq2 (directives_errs path dirs)
        (seq2 ((fix go (xs : list selection) : option (list verror) :=
                  match xs with [] => Some [] | x :: r => seq2 (sel_errs inner path x) (go r) end) sels)
              (Some (valid_locations_errors V path "INLINE_FRAGMENT" l dirs ++ type_condition_errs path l tc)))
  end.

Definition sels_errs (scope : option string) (path : opath) (sels : list selection) : option (list verror) :=
  (fix go (xs : list selection) : option (list verror) :=
     match xs with [] => Some [] | x :: r => seq2 (sel_errs scope path x) (go r) end) sels.

Definition walks_sel (s : selection) : Prop := forall path st,
  obs st (walk_selection V path s st) (sel_errs (parent_type st) path s) /\
  parent_type (walk_selection V path s st) = parent_type st.

Lemma walk_selections_obs_of path sels : Forall walks_sel sels -> forall st,
  obs st (walk_selections V path sels st) (sels_errs (parent_type st) path sels) /\
  parent_type (walk_selections V path sels st) = parent_type st.
Proof.
  induction 1 as [|x r Hx _ IH]; intros st; [split; [apply obs_refl|reflexivity]|].
  destruct (Hx path st) as [O1 P1]. destruct (IH (walk_selection V path x st)) as [O2 P2]. rewrite P1 in O2, P2.
  split; [exact (obs_trans O1 O2)|exact P2].
Qed.

Lemma walk_selection_obs s : walks_sel s.
Proof.
  (* obs composes along arguments, directives, sub-selections and the field's rules (obs_trans); the record
     updates in between are same_verdict steps, the scope handed down is recovered through the *_outer lemmas,
     and the selection restores parent_type *)
  induction s as [l alias name args dirs sels IH|l name dirs|l tc dirs sels IH] using selection_ind2; intros path st.
  - rewrite walk_selection_field. cbv zeta.
    set (path' := path_push path name).
    set (st1 := st <| parent_type := field_type_name V (parent_type st) name |> <| in_directive := false |> <| cur_field := _ |>).
    pose proof (walk_arguments_obs path' args st1) as O2. set (st2 := walk_arguments path' args st1) in *.
    pose proof (walk_directives_obs path' dirs st2) as O3. set (st3 := walk_directives V path' dirs st2) in *.
    destruct (walk_selections_obs_of path' sels IH st3) as [O4 P4].
    assert (P3 : parent_type st3 = field_type_name V (parent_type st) name).
    { unfold st3. rewrite (outer_parent_type _ _ (walk_directives_outer V _ _ _)). exact (outer_parent_type _ _ (walk_arguments_outer _ _ _)). }
    rewrite P3 in O4.
    split; [|exact (outer_parent_type _ _ (field_rules_outer V _ _ _ _ _ _ _))].
    refine (obs_same_l st st1 same (obs_trans O2 (obs_trans O3 (obs_trans O4 _)))).
    exact (obs_same_l _ _ same (field_rules_obs path' l name args dirs _ _)).
  - cbn [walk_selection sel_errs].
    split.
    + refine (obs_same (obs_same _ same) (upd_scope_same _ _)).
      exact (obs_trans (walk_directives_obs path dirs st) (emit_ok_obs _ _)).
    + rewrite (outer_parent_type _ _ (upd_scope_outer _ _)). cbn [parent_type set].
      rewrite (outer_parent_type _ _ (emit_ok_outer _ _)). exact (outer_parent_type _ _ (walk_directives_outer V _ _ _)).
  - rewrite walk_selection_inline. cbv zeta. split; [|reflexivity].
    set (st1 := match tc with Some t => st <| parent_type := Some t |> | None => st end).
    assert (P1 : parent_type st1 = match tc with Some t => Some t | None => parent_type st end) by (unfold st1; destruct tc; reflexivity).
    pose proof (walk_directives_obs path dirs st1) as O2. set (st2 := walk_directives V path dirs st1) in *.
    destruct (walk_selections_obs_of path sels IH st2) as [O3 _].
    rewrite (outer_parent_type _ _ (walk_directives_outer V _ _ _) : parent_type st2 = parent_type st1), P1 in O3.
    cbn [sel_errs]. unfold type_condition_errs.
    refine (obs_same _ same).
    refine (obs_same_l st st1 _ (obs_trans O2 (obs_trans O3 _))); [unfold st1; destruct tc; exact same|].
    exact (obs_trans (emit_ok_obs _ _) (obs_trans (emit_ok_obs _ _) (emit_ok_obs _ _))).
Qed.

Lemma walk_selections_obs path sels st :
  obs st (walk_selections V path sels st) (sels_errs (parent_type st) path sels) /\
  parent_type (walk_selections V path sels st) = parent_type st.
Proof. apply walk_selections_obs_of, Forall_forall. intros s _ p st0. apply walk_selection_obs. Qed.

Definition vardef_errs (vd : var_def) : list verror :=
  (match v_default vd with Some d => value_errs None d | None => [] end) ++
  (match vfind_type V (named_of (v_type vd)) with
   | Some d => if is_input_def d then [] else [mkerr "variables-are-input-types" None [v_loc vd]]
   | None => [] end).
Definition vardefs_errs (vds : list var_def) : list verror :=
  match vds with
  | [] => []
  | _ => flat_map vardef_errs vds ++ uniq_errors "variable-uniqueness" v_name v_loc None vds
  end.

Lemma walk_vardef_obs vd st : obs st (walk_vardef V vd st) (Some (vardef_errs vd)).
Proof.
  unfold walk_vardef, vardef_errs. destruct (v_default vd) as [d|]; [|apply emit_ok_obs].
  exact (obs_trans (walk_value_obs None d st) (emit_ok_obs _ _)).
Qed.

Lemma walk_vardefs_obs vds st : obs st (walk_vardefs V vds st) (Some (vardefs_errs vds)).
Proof.
  destruct vds as [|vd r]; [apply obs_refl|].
  set (st1 := st <| in_vardefs := true |>).
  pose proof (fold_obs_some (walk_vardef V) vardef_errs (vd :: r) (fun x st0 _ => walk_vardef_obs x st0) st1) as O.
  set (st2 := fold_left _ (vd :: r) st1) in *.
  set (st3 := st2 <| in_vardefs := false |>).
  exact (obs_same_l st st1 same (obs_trans O (obs_same_l st2 st3 same (emit_ok_obs _ _)))).
Qed.

Definition operation_errs (o : operation) : option (list verror) :=
  seq2 (Some (vardefs_errs (o_vars o)))
    (seq2 (directives_errs None (o_dirs o))
       (seq2 (sels_errs (op_root V (o_kind o)) None (o_sels o))
             (Some (valid_locations_errors V None (op_loc_name (o_kind o)) (o_loc o) (o_dirs o))))).

Lemma walk_operation_obs o st : obs st (walk_operation V o st) (operation_errs o).
Proof.
  unfold walk_operation.
  set (st1 := st <| parent_type := op_root V (o_kind o) |> <| in_operation := true |> <| cur_op := op_key o |> <| per_op ::= _ |>).
  set (st3 := walk_directives V None (o_dirs o) (walk_vardefs V (o_vars o) st1)).
  destruct (walk_selections_obs None (o_sels o) st3) as [O4 _].
  replace (parent_type st3) with (op_root V (o_kind o)) in O4.
  - exact (obs_same_l st st1 same (obs_trans (walk_vardefs_obs (o_vars o) st1)
            (obs_trans (walk_directives_obs None (o_dirs o) _) (obs_trans O4 (emit_ok_obs _ _))))).
  - symmetry. unfold st3. rewrite (outer_parent_type _ _ (walk_directives_outer V _ _ _)). exact (outer_parent_type _ _ (walk_vardefs_outer V _ _)).
Qed.

Definition fragment_errs (f : fragment) : option (list verror) :=
  seq2 (directives_errs None (fr_dirs f))
    (seq2 (sels_errs (Some (fr_type f)) None (fr_sels f))
          (Some (valid_locations_errors V None "FRAGMENT_DEFINITION" (fr_loc f) (fr_dirs f) ++
                 type_condition_errs None (fr_loc f) (Some (fr_type f))))).

Lemma walk_fragment_obs f st : obs st (walk_fragment V f st) (fragment_errs f).
Proof.
  unfold walk_fragment.
  set (st1 := st <| parent_type := Some (fr_type f) |> <| in_operation := false |> <| cur_frag := fr_name f |> <| per_frag ::= _ |>).
  set (st2 := walk_directives V None (fr_dirs f) st1).
  destruct (walk_selections_obs None (fr_sels f) st2) as [O3 _].
  rewrite (outer_parent_type _ _ (walk_directives_outer V _ _ _) : parent_type st2 = parent_type st1) in O3.
  exact (obs_same_l st st1 same (obs_trans (walk_directives_obs None (fr_dirs f) st1) (obs_trans O3
        (obs_trans (emit_ok_obs _ _) (obs_trans (emit_ok_obs _ _) (emit_ok_obs _ _)))))).
Qed.

Definition walk_phase_errs (doc : document) : option (list verror) :=
  seq2 (seqs (map operation_errs (operations doc))) (seqs (map fragment_errs (fragments doc))).

Definition walked (doc : document) : vctx :=
  fold_left (fun st f => walk_fragment V f st) (fragments doc)
    (fold_left (fun st o => walk_operation V o st) (operations doc) init_ctx).

Theorem walked_obs doc : obs init_ctx (walked doc) (walk_phase_errs doc).
Proof.
  exact (obs_trans (fold_obs (walk_operation V) _ _ (fun o st _ => walk_operation_obs o st) _)
                             (fold_obs (walk_fragment V) _ _ (fun f st _ => walk_fragment_obs f st) _)).
Qed.

Definition clean (st : vctx) : Prop := aborted st = false /\ crashed st = false /\ errs st = [].
Definition quiet (r : option (list verror)) : Prop := r = Some [].

Lemma clean_init : clean init_ctx.
Proof. repeat split. Qed.

Theorem walked_clean_iff doc : clean (walked doc) <-> quiet (walk_phase_errs doc).
Proof.
  destruct (walked_obs doc) as [A H]. unfold clean, quiet.
  destruct (walk_phase_errs doc) as [E|].
  - destruct H as [C HE]. rewrite some_nil_iff, HE. tauto.
  - split; [intros (_ & Hc & _); congruence|discriminate].
Qed.

Lemma emit_clean_iff b r st : clean (emit b r st) <-> clean st /\ quiet r.
Proof.
  unfold clean, emit. destruct (aborted st) eqn:Ea; cbn [orb].
  - rewrite Ea. split; [intros (H & _); discriminate|intros ((H & _) & _); discriminate].
  - destruct (crashed st) eqn:Ec.
    + rewrite Ec. split; [intros (_ & H & _); discriminate|intros ((_ & H & _) & _); discriminate].
    + destruct r as [[|e es]|].
      * assert (Hb : b && negb true = false) by (destruct b; reflexivity). rewrite Hb. cbn. rewrite Ec, app_nil_r.
        split; [intros (_ & _ & H); repeat split; auto|intros ((_ & _ & H) & _); auto].
      * split.
        -- intros (_ & _ & H). destruct b; apply app_eq_nil in H; destruct H as [_ H]; discriminate.
        -- intros (_ & H). discriminate.
      * split; [intros (_ & H & _); discriminate|intros (_ & H); discriminate].
Qed.
Lemma emit_ok_clean_iff es st : clean (emit_ok es st) <-> clean st /\ es = [].
Proof. unfold emit_ok. rewrite emit_clean_iff. split; intros [H1 H2]; auto; [now inversion H2|now subst]. Qed.

(* the document-level rules: each is emitted in turn and reads only the books the walk has left,
   which the emits do not touch *)
Definition reader := (bool * (vctx -> option (list verror)))%type.
Definition run_rules (rules : list reader) (st : vctx) : vctx :=
  fold_left (fun st bf => emit (fst bf) (snd bf st) st) rules st.
Definition reads_books (bf : reader) : Prop := forall st st', books_of st' = books_of st -> snd bf st' = snd bf st.

Definition all_quiet (rules : list reader) (st : vctx) : Prop :=
  fold_right (fun bf P => quiet (snd bf st) /\ P) True rules.

Lemma run_rules_clean rules : Forall reads_books rules -> forall st,
  clean (run_rules rules st) <-> clean st /\ all_quiet rules st.
Proof.
  induction 1 as [|[b f] r Hf Hr IH]; intros st; cbn [run_rules fold_left all_quiet fold_right fst snd]; [tauto|].
  rewrite IH, emit_clean_iff.
  assert (E : all_quiet r (emit b (f st) st) <-> all_quiet r st).
  { clear - Hr. induction Hr as [|bf r' H _ IH']; cbn [all_quiet fold_right]; [tauto|].
    rewrite (H _ _ (emit_books_of b (f st) st)). tauto. }
  tauto.
Qed.

Lemma scope_collect_books {A} (st st' : vctx) (get : scope_info -> list A) o :
  per_op st' = per_op st -> per_frag st' = per_frag st -> scope_collect st' get o = scope_collect st get o.
Proof. intros H1 H2. unfold scope_collect. now rewrite H1, H2. Qed.

Lemma variable_rules_books st st' ops : per_op st' = per_op st -> per_frag st' = per_frag st ->
  uses_defined_rule st' ops = uses_defined_rule st ops /\
  variables_used_rule st' ops = variables_used_rule st ops /\
  usages_allowed_rule V st' ops = usages_allowed_rule V st ops.
Proof.
  intros H1 H2.
  repeat split; apply fold_left_ext; intros acc o; now rewrite (scope_collect_books _ _ _ o H1 H2).
Qed.

Definition doc_rules (doc : document) : list reader :=
  let frs := fragments doc in
  let ops := operations doc in
  [(true, fun _ => cycle_rule frs);
   (false, fun _ => Some (operation_name_errors ops));
   (false, fun _ => Some (lone_anonymous_errors ops));
   (false, fun _ => single_root_rule doc);
   (false, fun _ => Some (fragment_name_errors frs));
   (false, fun st => Some (spread_target_errors frs (frag_spreads st)));
   (false, fun st => Some (must_be_used_errors frs (frag_spreads st)));
   (false, fun st => Some (inline_possible_errors V (inlined_in st) ++ spread_possible_errors V frs (spreaded_in st)));
   (false, fun st => uses_defined_rule st ops);
   (false, fun st => variables_used_rule st ops);
   (false, fun st => usages_allowed_rule V st ops)].

Lemma validate_ctx_run doc : validate_ctx V doc = run_rules (doc_rules doc) (walked doc).
Proof. unfold run_rules, doc_rules. cbn [fold_left fst snd]. reflexivity. Qed.

Lemma doc_rules_read_books doc : Forall reads_books (doc_rules doc).
Proof.
  repeat (apply Forall_cons; [intros st st' H; cbn [snd]|]); [..|apply Forall_nil]; try reflexivity.
  - now rewrite (f_equal frag_spreads H : frag_spreads st' = frag_spreads st).
  - now rewrite (f_equal frag_spreads H : frag_spreads st' = frag_spreads st).
  - now rewrite (f_equal inlined_in H : inlined_in st' = inlined_in st), (f_equal spreaded_in H : spreaded_in st' = spreaded_in st).
  - apply (variable_rules_books _ _ _ (f_equal per_op H) (f_equal per_frag H)).
  - apply (variable_rules_books _ _ _ (f_equal per_op H) (f_equal per_frag H)).
  - apply (variable_rules_books _ _ _ (f_equal per_op H) (f_equal per_frag H)).
Qed.

(* ACCEPTANCE DECOMPOSED: a document is handed to execution exactly when the walk phase and every
   document-level rule are quiet *)
Theorem validate_clean_iff doc :
  clean (validate_ctx V doc) <->
  quiet (walk_phase_errs doc) /\
  (quiet (cycle_rule (fragments doc)) /\ operation_name_errors (operations doc) = [] /\
   lone_anonymous_errors (operations doc) = [] /\
   quiet (single_root_rule doc) /\ fragment_name_errors (fragments doc) = [] /\
   spread_target_errors (fragments doc) (frag_spreads (walked doc)) = [] /\
   must_be_used_errors (fragments doc) (frag_spreads (walked doc)) = [] /\
   inline_possible_errors V (inlined_in (walked doc)) ++ spread_possible_errors V (fragments doc) (spreaded_in (walked doc)) = [] /\
   quiet (uses_defined_rule (walked doc) (operations doc)) /\ quiet (variables_used_rule (walked doc) (operations doc)) /\
   quiet (usages_allowed_rule V (walked doc) (operations doc))).
Proof.
  rewrite validate_ctx_run, (run_rules_clean _ (doc_rules_read_books doc)), walked_clean_iff.
  unfold doc_rules. cbn [all_quiet fold_right snd]. unfold quiet. rewrite !some_nil_iff. tauto.
Qed.

(* the aborted flag is only ever set together with an error: `accepted` does not look at the flag, `clean` does *)
Definition abort_inv (st : vctx) : Prop := aborted st = true -> errs st <> [].
Lemma emit_abort_inv b r st : abort_inv st -> abort_inv (emit b r st).
Proof.
  unfold abort_inv, emit. intros H. destruct (aborted st) eqn:Ea; cbn [orb]; [rewrite Ea; exact H|].
  destruct (crashed st); [rewrite Ea; discriminate|].
  destruct r as [[|e es]|]; cbn.
  - destruct b; cbn; rewrite Ea; discriminate.
  - intros _ E. destruct b; apply app_eq_nil in E; destruct E as [_ E]; discriminate.
  - rewrite Ea. discriminate.
Qed.

Lemma walked_not_aborted doc : aborted (walked doc) = false.
Proof. exact (proj1 (walked_obs doc)). Qed.

Lemma validate_abort_inv doc : abort_inv (validate_ctx V doc).
Proof.
  rewrite validate_ctx_run.
  assert (H : forall rules st, abort_inv st -> abort_inv (fold_left (fun st (bf : reader) => emit (fst bf) (snd bf st) st) rules st)).
  { induction rules as [|bf r IH]; intros st Hst; [exact Hst|]. apply IH, emit_abort_inv, Hst. }
  apply H. unfold abort_inv. rewrite walked_not_aborted. discriminate.
Qed.

Theorem accepted_iff_clean doc : accepted V doc = true <-> clean (validate_ctx V doc).
Proof.
  unfold accepted, impl_validate, clean. pose proof (validate_abort_inv doc) as Hi. unfold abort_inv in Hi.
  destruct (crashed (validate_ctx V doc)).
  - split; [discriminate|intros (_ & H & _); discriminate].
  - destruct (errs (validate_ctx V doc)) as [|e es].
    + split; [|reflexivity]. destruct (aborted (validate_ctx V doc)); [exfalso; now apply Hi|repeat split].
    + split; [discriminate|intros (_ & _ & H); discriminate].
Qed.

Lemma accepted_single_root doc : accepted V doc = true -> quiet (single_root_rule doc).
Proof. intros E. apply accepted_iff_clean, validate_clean_iff in E. now destruct E as (_ & _ & _ & _ & H & _). Qed.
Lemma accepted_possible_spreads doc : accepted V doc = true ->
  inline_possible_errors V (inlined_in (walked doc)) ++ spread_possible_errors V (fragments doc) (spreaded_in (walked doc)) = [].
Proof. intros E. apply accepted_iff_clean, validate_clean_iff in E. now destruct E as (_ & _ & _ & _ & _ & _ & _ & _ & H & _). Qed.
Lemma accepted_variable_rules doc : accepted V doc = true ->
  quiet (uses_defined_rule (walked doc) (operations doc)) /\ quiet (variables_used_rule (walked doc) (operations doc)) /\
  quiet (usages_allowed_rule V (walked doc) (operations doc)).
Proof. intros E. apply accepted_iff_clean, validate_clean_iff in E. now destruct E as (_ & _ & _ & _ & _ & _ & _ & _ & _ & H). Qed.

End Walk.
