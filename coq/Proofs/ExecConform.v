(* C03: whatever resolvers return, the data the implementation model produces conforms to the
   schema and the selection. *)
From Coq Require Import List String.
From TV Require Import Py.Prelude Model.Schema Model.ImplInput Model.ImplExec Proofs.ExecShape Proofs.MixedFields.
Import ListNotations.

Section Conform.
Variable sch : schema.
Variable doc : document.
Variable vs : vars.
Variable U : usercode.
Variable cfg : config.

(* a response value conforms to a declared type for the (merged) field nodes selecting it *)
Inductive conf_ty : ty -> list fnode -> pyval -> Prop :=
| CNull t nodes : is_non_null t = false -> conf_ty t nodes PNone
| CNonNull t nodes v : v <> PNone -> conf_ty t nodes v -> conf_ty (TNonNull t) nodes v
| CList t nodes l : Forall (conf_ty t nodes) l -> conf_ty (TList t) nodes (PList l)
| CScalar n nodes ops v r :
    find_type sch n = Some DScalar -> scalars sch n = Some ops ->
    s_output ops v = Ok r -> is_undef r = false ->
    conf_ty (TNamed n) nodes r
| CEnum n nodes values x :
    find_type sch n = Some (DEnum values) -> mem_str x values = true ->
    conf_ty (TNamed n) nodes (PStr x)
| CObject n nodes rt sub kv :
    (rt = n \/ mem_str rt (possible_types sch n) = true) ->
    (exists ifs fs, find_type sch rt = Some (DObject ifs fs)) ->
    collect_subfields sch doc vs COLLECT_FUEL rt nodes [] [] = Some sub ->
    conf_fields rt sub kv ->
    conf_ty (TNamed n) nodes (PDict kv)
(* exactly the collected response keys (those whose field the type defines), in order *)
with conf_fields : string -> fields -> list (string * pyval) -> Prop :=
| CFNil rt : conf_fields rt [] []
| CFSkip rt k node ns rest kv :
    get_field_definition sch rt (fn_name node) = None ->
    conf_fields rt rest kv -> conf_fields rt ((k, node :: ns) :: rest) kv
| CFCons rt k node ns rest kv fd v :
    get_field_definition sch rt (fn_name node) = Some fd ->
    conf_ty (fd_type fd) (node :: ns) v ->
    conf_fields rt rest kv -> conf_fields rt ((k, node :: ns) :: rest) ((k, v) :: kv).

Ltac cnull := apply CNull; first [reflexivity | assumption].

Definition rf_ok (rf : rfun) : Prop :=
  forall otype value opath k ns s o s',
    rf otype value opath k ns s = (OVal o, s') ->
    exists node rest, ns = node :: rest /\
      match o with
      | None => get_field_definition sch otype (fn_name node) = None
      | Some v => exists fd, get_field_definition sch otype (fn_name node) = Some fd /\
                             conf_ty (fd_type fd) ns v
      end.

Definition val {A} (P : A -> Prop) (r : outcome A) : Prop := match r with OVal a => P a | _ => True end.
Definition returns {A} (m : M A) (P : A -> Prop) : Prop := forall s, val P (fst (m s)).

Lemma returns_ret {A} (r : outcome A) P : val P r -> returns (ret r) P.
Proof. intros H s. exact H. Qed.
Lemma returns_andthen {A B} (m : M A) (k : outcome A -> M B) P Q :
  returns m P -> (forall r, val P r -> returns (k r) Q) -> returns (andthen m k) Q.
Proof. intros Hm Hk s. unfold andthen. specialize (Hm s). destruct (m s) as [r s1]. exact (Hk r Hm s1). Qed.
Lemma returns_ext {A} (m m' : M A) P : (forall s, m s = m' s) -> returns m' P -> returns m P.
Proof. intros H H' s. rewrite H. apply H'. Qed.
Lemma returns_eq {A} (m : M A) P s a s' : returns m P -> m s = (OVal a, s') -> P a.
Proof. intros H E. specialize (H s). now rewrite E in H. Qed.

Lemma val_merge {A B C} (f : A -> B -> C) (P : A -> Prop) (Q : B -> Prop) (R : C -> Prop) r rs :
  (forall a b, P a -> Q b -> R (f a b)) -> val P r -> val Q rs -> val R (merge f r rs).
Proof. destruct r, rs; cbn; auto. Qed.
Lemma val_lift {A B} (f : A -> B) (P : A -> Prop) (Q : B -> Prop) r : (forall a, P a -> Q (f a)) -> val P r -> val Q (lift f r).
Proof. destruct r; cbn; auto. Qed.

Definition field_conf (otype : string) (ns : list fnode) (o : option pyval) : Prop :=
  exists node rest, ns = node :: rest /\
    match o with
    | None => get_field_definition sch otype (fn_name node) = None
    | Some v => exists fd, get_field_definition sch otype (fn_name node) = Some fd /\ conf_ty (fd_type fd) ns v
    end.

Lemma conf_fields_cons otype k ns rest o kv :
  field_conf otype ns o -> conf_fields otype rest kv -> conf_fields otype ((k, ns) :: rest) (cons_field k o kv).
Proof.
  intros (node & ns' & -> & Ho) Hr. destruct o as [v|]; [destruct Ho as (fd & Hfd & Hc); eapply CFCons; eauto|now apply CFSkip].
Qed.

Section Fields.
Variable otype : string.
Variable rf : string -> list fnode -> M (option pyval).
Hypothesis Hrf : forall k ns, returns (rf k ns) (field_conf otype ns).

(* per-field settings: a slot filled by the first pass holds a field's contribution *)
Definition slot_conf (kn : string * list fnode) (slot : option (option pyval)) : Prop :=
  match slot with None => True | Some o => field_conf otype (snd kn) o end.

Lemma pass1_conf isc fs : returns (mixed_pass1 isc rf fs) (Forall2 slot_conf fs).
Proof.
  induction fs as [|[k ns] rest IH]; [constructor|]. eapply returns_ext; [apply pass1_cons|].
  destruct (isc k ns).
  - eapply returns_andthen; [exact IH|]. intros rs Hrs. apply returns_ret. eapply val_lift; [|exact Hrs].
    now constructor.
  - eapply returns_andthen; [apply Hrf|]. intros [o|l|e] Hr; try (apply returns_ret; exact I).
    eapply returns_andthen; [exact IH|]. intros rs Hrs. apply returns_ret. eapply val_lift; [|exact Hrs].
    now constructor.
Qed.

Lemma pass2_conf fs slots : Forall2 slot_conf fs slots -> returns (mixed_pass2 rf fs slots) (conf_fields otype fs).
Proof.
  intros HF. induction HF as [|[k ns] slot rest srest Hs HF IH]; [constructor|].
  eapply returns_ext; [apply pass2_cons|].
  eapply returns_andthen; [destruct slot; [apply returns_ret; exact Hs|apply Hrf]|]. intros r Hr.
  eapply returns_andthen; [exact IH|]. intros rs Hrs. apply returns_ret. eapply val_merge; [|exact Hr|exact Hrs].
  now apply conf_fields_cons.
Qed.

Lemma mixed_conf isc fs : returns (exec_fields_mixed isc rf fs) (conf_fields otype fs).
Proof.
  eapply returns_ext; [apply mixed_eq|]. eapply returns_andthen; [apply pass1_conf|].
  intros [slots|l|e] Hr; try (apply returns_ret; exact I). now apply pass2_conf.
Qed.
(* the uniform configurations are the two corner cases of the two-pass walk *)
Lemma conc_conf fs : returns (exec_fields_conc rf fs) (conf_fields otype fs).
Proof. eapply returns_ext; [symmetry; apply (mixed_all_conc rf (fun _ _ => true)); reflexivity|]. apply mixed_conf. Qed.

Lemma seq_conf fs : returns (exec_fields_seq rf fs) (conf_fields otype fs).
Proof. eapply returns_ext; [symmetry; apply (mixed_all_seq rf (fun _ _ => false)); reflexivity|]. apply mixed_conf. Qed.
End Fields.

Lemma rf_ok_returns rf : rf_ok rf <-> forall otype value opath k ns, returns (rf otype value opath k ns) (field_conf otype ns).
Proof.
  split.
  - intros H otype value opath k ns s. destruct (rf otype value opath k ns s) as [[o|l|e] s'] eqn:E; [exact (H _ _ _ _ _ _ _ _ E)|exact I|exact I].
  - intros H otype value opath k ns s o s' E. exact (returns_eq _ _ _ _ _ (H otype value opath k ns) E).
Qed.

Lemma exec_fields_conc_conf rf otype value opath :
  rf_ok rf -> forall sub s kv s',
  exec_fields_conc (fun k ns => rf otype value opath k ns) sub s = (OVal kv, s') ->
  conf_fields otype sub kv.
Proof.
  intros Hrf sub s kv s'. apply returns_eq, conc_conf. intros k ns. now apply rf_ok_returns.
Qed.

Lemma exec_sub_conf rf nodes n rt value opath :
  rf_ok rf ->
  (rt = n \/ mem_str rt (possible_types sch n) = true) ->
  (exists ifs fs, find_type sch rt = Some (DObject ifs fs)) ->
  returns (exec_sub sch doc vs cfg rf nodes rt value opath) (conf_ty (TNamed n) nodes).
Proof.
  intros Hrf Hrt Hobj. eapply returns_ext; [apply exec_sub_eq|].
  destruct (collect_subfields sch doc vs COLLECT_FUEL rt nodes [] []) as [sub|] eqn:Ec; [|apply returns_ret; exact I].
  eapply returns_andthen; [apply mixed_conf; now apply rf_ok_returns|].
  intros r Hr. apply returns_ret. eapply val_lift; [|exact Hr]. intros kv Hkv. eapply CObject; eauto.
Qed.

Lemma leaf_conf rf ptype fd nodes path :
  rf_ok rf -> forall n v lp, returns (leaf_coercer sch doc vs U cfg rf ptype fd nodes path n v lp) (conf_ty (TNamed n) nodes).
Proof.
  intros Hrf n v lp. eapply returns_ext; [apply leaf_coercer_eq|].
  assert (Habs : returns (abstract_leaf sch doc vs U cfg rf ptype fd nodes path n v lp) (conf_ty (TNamed n) nodes)).
  { intros s. unfold abstract_leaf, abstract_type.
    destruct (match type_resolver_kind U n ptype (fd_name fd) with TRDefault => _ | TRCustom => _ end) as [t|]; [|exact I].
    destruct (resolve_runtime_type sch n t nodes) as [rt|l|e] eqn:Er; try exact I.
    destruct (resolve_runtime_type_val _ _ _ _ _ Er) as (_ & Hp & Ho). now apply exec_sub_conf; auto. }
  destruct (find_type sch n) as [[ |values|ins|ifs fs|ifields|ms]|] eqn:En; try (apply returns_ret; exact I);
    (destruct (is_none v); [apply returns_ret; now cnull|]); try exact Habs.
  - apply returns_ret. unfold scalar_leaf. destruct (scalars sch n) as [ops|] eqn:Eo; [|exact I].
    destruct (s_output ops v) as [o|[]] eqn:Es; try exact I. destruct (is_undef o) eqn:Eu; [exact I|]. eapply CScalar; eauto.
  - apply returns_ret. unfold enum_leaf. destruct v; try exact I. destruct (mem_str s values) eqn:Em; [|exact I].
    eapply CEnum; eauto.
  - apply exec_sub_conf; eauto.
Qed.

Lemma catch_conf nodes p t m :
  returns m (conf_ty t nodes) -> returns (catch nodes p t m) (conf_ty t nodes).
Proof.
  intros H. eapply returns_andthen; [exact H|]. intros [v|l|e] Hr; try (apply returns_ret; exact Hr).
  intros s. rewrite handle_field_error_eq. destruct (is_non_null t) eqn:En; [exact I|now cnull].
Qed.

Lemma coerce_output_conf nodes leaf :
  (forall n v lp, returns (leaf n v lp) (conf_ty (TNamed n) nodes)) ->
  forall t v path, returns (coerce_output nodes leaf t v path) (conf_ty t nodes).
Proof.
  intros Hleaf. induction t as [n|t IH|t IH]; intros v path; [apply Hleaf|..].
  - eapply returns_ext; [apply coerce_output_list|].
    destruct v; try (apply returns_ret; first [exact I|now cnull]).
    assert (Hitems : forall items i, returns (complete_items (fun x q => catch nodes q t (completed nodes leaf t x q)) path i items)
                                       (Forall (conf_ty t nodes))).
    { induction items as [|x xs IHx]; intros i; [constructor|].
      eapply returns_ext; [apply items_cons|]. eapply returns_andthen.
      - apply catch_conf. unfold completed. destruct (is_exc_value x); [apply returns_ret; exact I|apply IH].
      - intros r Hr. eapply returns_andthen; [apply IHx|]. intros rs Hrs. apply returns_ret.
        eapply val_merge; [|exact Hr|exact Hrs]. now constructor. }
    eapply returns_andthen; [apply Hitems|]. intros r Hr. apply returns_ret. eapply val_lift; [|exact Hr].
    now constructor.
  - eapply returns_ext; [apply coerce_output_nonnull|]. eapply returns_andthen; [apply IH|].
    intros [[]|l|e] Hr; apply returns_ret; try exact I; (apply CNonNull; [discriminate|exact Hr]).
Qed.

Lemma complete_field_conf rf otype fd node rest path raw :
  rf_ok rf -> get_field_definition sch otype (fn_name node) = Some fd ->
  returns (complete_field sch doc vs U cfg rf otype fd (node :: rest) path raw) (field_conf otype (node :: rest)).
Proof.
  intros Hrf Efd. eapply returns_ext; [apply complete_field_eq|].
  eapply returns_andthen; [apply catch_conf with (t := fd_type fd) (nodes := node :: rest)|].
  - destruct raw as [v|l|e]; [|apply returns_ret; exact I..]. unfold completed.
    destruct (is_exc_value v); [apply returns_ret; exact I|]. apply coerce_output_conf. now apply leaf_conf.
  - intros r Hr. apply returns_ret. eapply val_lift; [|exact Hr]. intros v Hv. exists node, rest. split; [reflexivity|eauto].
Qed.

Lemma resolve_field_body_ok rf : rf_ok rf -> rf_ok (resolve_field_body sch doc vs U cfg rf).
Proof.
  intros Hrf. apply rf_ok_returns. intros otype value opath k [|node rest]; [apply returns_ret; exact I|].
  eapply returns_ext; [apply resolve_field_body_eq|].
  destruct (get_field_definition sch otype (fn_name node)) as [fd|] eqn:Efd; [|exists node, rest; now split].
  eapply returns_andthen with (P := fun _ => True); [intros s; now destruct (fst _)|]. intros raw _.
  destruct raw as [v|l|e]; [now apply complete_field_conf..|apply returns_ret; exact I].
Qed.

Theorem resolve_field_ok fuel : rf_ok (resolve_field sch doc vs U cfg fuel).
Proof.
  induction fuel as [|fuel IH]; [cbn; discriminate|now apply resolve_field_body_ok].
Qed.

Theorem execute_operation_conforms op root r :
  execute_operation sch doc vs U cfg op root = OVal r ->
  r_data r = PNone \/
  exists rt fs v kv, root_type_of sch (o_kind op) = Some rt /\
    collect_fields sch doc vs COLLECT_FUEL rt (o_sels op) [] [] = Some (fs, v) /\
    r_data r = PDict kv /\ conf_fields rt fs kv.
Proof.
  rewrite execute_operation_eq. destruct (root_type_of sch (o_kind op)) as [rt|]; [|discriminate].
  destruct (collect_fields sch doc vs COLLECT_FUEL rt (o_sels op) [] []) as [[fs v]|] eqn:Ec; [|discriminate].
  assert (Hrun : returns (run_operation sch doc vs U cfg op rt root fs) (conf_fields rt fs)).
  { assert (Hrf : forall k ns, returns (resolve_field sch doc vs U cfg EXEC_FUEL rt root [] k ns) (field_conf rt ns))
      by (now apply rf_ok_returns, resolve_field_ok).
    unfold run_operation. destruct (o_kind op); [now apply mixed_conf|now apply seq_conf|now apply mixed_conf]. }
  specialize (Hrun st0). destruct (run_operation _ _ _ _ _ _ _ _ _ st0) as [[kv|l|e] s];
    intros H; inversion H; [right; exists rt, fs, v, kv; auto|now left].
Qed.

End Conform.
