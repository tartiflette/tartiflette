(* The cases of argument coercion that property C05 names: a variable anywhere in a literal, omitted / null /
   unprovided-variable arguments, default = explicit literal, locality of errors. *)
From Coq Require Import ZArith List String Bool.
From TV Require Import Py.Prelude Model.Schema Model.ImplInput Model.SpecLiteral Proofs.LiteralRefine Proofs.ArgsRefine.

Section Facts.
Variable sch : schema.

(* what a variable node evaluates to at a position (nn: the position is non-null) *)
Definition subst_var (vs : vars) (nn : bool) (x : string) : pyval :=
  let v := var_lookup vs x in
  if is_undef v || (is_none v && nn) then PUndef else v.

(* a named type usable at input positions, with an implementation when it is a scalar *)
Definition input_leaf_ok (n : string) : bool :=
  match find_type sch n with
  | Some DScalar => match scalars sch n with Some _ => true | None => false end
  | Some (DEnum _) | Some (DInput _) => true
  | _ => false
  end.

Lemma subst_var_is_var_value vs nn x : subst_var vs nn x = var_value vs nn x.
Proof. pose proof (var_value_eq vs nn x) as H. unfold subst_var. destruct (_ || _); now injection H. Qed.

(* Variables are substituted as they are at EVERY position of every type: the runtime value
   of the variable, or invalid when it is missing / null at a non-null position.  (No check
   of the variable's type happens here: that is the validation rule's business.) *)
Theorem variable_substituted_everywhere fuel t vs nn l x :
  input_leaf_ok (named_of t) = true ->
  spec_literal sch (S fuel) t vs nn (LVar l x) = Ok (var_value vs (nn || is_non_null t) x).
Proof.
  intros Hok. revert nn. induction t as [n|t IH|t IH]; intros nn; cbn [is_non_null named_of] in *.
  - rewrite orb_false_r. unfold input_leaf_ok in Hok. cbn [spec_literal].
    destruct (find_type sch n) as [[ | | | | | ]|]; try discriminate; [|reflexivity|reflexivity].
    now destruct (scalars sch n).
  - now rewrite orb_false_r.
  - rewrite orb_true_r. exact (IH Hok true).
Qed.

Definition mk_arg (n : string) (v : lit) : argument := {| a_name := n; a_value := v; a_loc := (0, 0)%Z |}.

(* a variable supplied directly as the argument value contributes its coerced runtime value *)
Theorem argument_variable_passthrough fuel ad floc a vs x l v :
  a_value a = LVar l x -> dict_get x vs = Some v -> (is_none v = false \/ is_non_null (in_type ad) = false) ->
  is_undef v = false ->
  argument_coercer sch fuel ad floc (Some a) vs = Ok (AVal v).
Proof.
  intros Ha Hv Hn Hu. rewrite argument_coercer_given. unfold given_of. rewrite Ha, Hv. cbn [coerce_given]. rewrite Hu.
  destruct Hn as [-> | ->]; now rewrite ?andb_false_r.
Qed.

Theorem argument_omitted fuel ad floc vs :
  in_default ad = None ->
  argument_coercer sch fuel ad floc None vs =
  if is_non_null (in_type ad) then Ok (AErr (in_name ad, ARequired, floc)) else Ok AUndefined.
Proof. intros Hd. rewrite argument_coercer_given. cbn [given_of coerce_given]. now rewrite Hd. Qed.

(* explicit null: delivered as null for a nullable type (distinct from absent), an error for
   a non-null type *)
Theorem argument_explicit_null fuel ad floc a vs l :
  a_value a = LNull l ->
  argument_coercer sch fuel ad floc (Some a) vs =
  if is_non_null (in_type ad) then Ok (AErr (in_name ad, ANonNullNull, l)) else Ok (AVal PNone).
Proof. intros Ha. rewrite argument_coercer_given. unfold given_of. now rewrite Ha. Qed.

(* a variable that was given no runtime value behaves as an omitted argument *)
Theorem argument_unprovided_variable fuel ad floc a vs l x :
  a_value a = LVar l x -> dict_get x vs = None -> in_default ad = None ->
  argument_coercer sch fuel ad floc (Some a) vs =
  if is_non_null (in_type ad) then Ok (AErr (in_name ad, AVarNotProvided, l)) else Ok AUndefined.
Proof.
  intros Ha Hv Hd. rewrite argument_coercer_given. unfold given_of. rewrite Ha, Hv. cbn [coerce_given]. now rewrite Hd.
Qed.

Definition plain_literal (d : lit) : bool :=
  match d with LVar _ _ | LNull _ => false | _ => true end.

Definition strip_loc (o : arg_outcome) : arg_outcome :=
  match o with AErr (n, k, _) => AErr (n, k, (0, 0)%Z) | _ => o end.

Theorem argument_default_eq_literal fuel ad floc vs d n :
  in_default ad = Some d -> plain_literal d = true ->
  bind (argument_coercer sch fuel ad floc None vs) (fun o => Ok (strip_loc o)) =
  bind (argument_coercer sch fuel ad floc (Some (mk_arg n d)) vs) (fun o => Ok (strip_loc o)).
Proof.
  intros Hd Hp. rewrite !argument_coercer_given.
  replace (given_of floc (Some (mk_arg n d)) vs) with (GLit d) by (destruct d; try discriminate; reflexivity).
  cbn [given_of coerce_given]. rewrite Hd. unfold coerce_lit.
  destruct (get_literal_coercer sch fuel (in_type ad) vs false d) as [cv|e]; cbn [bind]; [|reflexivity].
  destruct (is_undef cv); reflexivity.
Qed.

(* errors stay local to the argument that caused them; delivered keys are declared argument
   names *)
Theorem coerce_arguments_keys fuel floc anodes vs ads vals errs :
  coerce_arguments_aux sch fuel ads floc anodes vs = Ok (vals, errs) ->
  (forall k v, In (k, v) vals -> exists ad, In ad ads /\ in_name ad = k) /\
  (forall e, In e errs -> exists ad, In ad ads /\ in_name ad = fst (fst e)).
Proof.
  intros H. destruct (coerce_arguments_aux_In sch fuel floc anodes vs ads vals errs H) as [Hv He]. split.
  - intros k v Hin. apply Hv in Hin. destruct Hin as (ad & ? & ? & _). eauto.
  - intros [[n k] l] Hin. apply He in Hin. destruct Hin as (ad & ? & Ha). exists ad. split; [assumption|].
    symmetry. exact (proj1 (argument_coercer_error sch fuel ad floc _ vs n k l Ha)).
Qed.

End Facts.
