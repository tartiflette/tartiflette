(* The shape of the state-passing executor (Model/ImplExec.v), stated once: every function of it is built
   from `ret`, `andthen`, `proceed`, the gather `merge` of two awaited outcomes and `lift`; leaf_coercer is, for a
   type that has an output coercer, a guard on None followed by one of four leaves; the list items and the field
   are a `catch` around `completed`.  The property files reason through these equations (each holds by unfolding
   and case analysis; `handle_field_error_eq` even by reflexivity: it is there to be rewritten with). *)
From Coq Require Import ZArith List String.
From TV Require Import Py.Prelude Model.Schema Model.ImplInput Model.ImplExec.
Import ListNotations.

Open Scope list_scope.

Definition ret {A} (r : outcome A) : M A := fun s => (r, s).
Definition andthen {A B} (m : M A) (k : outcome A -> M B) : M B := fun s => let (r, s1) := m s in k r s1.
Lemma andthen_assoc {A B C} (m : M A) (k1 : outcome A -> M B) (k2 : outcome B -> M C) s :
  andthen (andthen m k1) k2 s = andthen m (fun r => andthen (k1 r) k2) s.
Proof. unfold andthen. now destruct (m s). Qed.

(* gather(..., return_exceptions=True) of two results, then extract_exceptions_from_results *)
Definition merge {A B C} (f : A -> B -> C) (r : outcome A) (rs : outcome B) : outcome C :=
  match r, rs with
  | OCrash e, _ => OCrash e
  | _, OCrash e => OCrash e
  | OVal a, OVal b => OVal (f a b)
  | OVal _, OExc l => OExc l
  | OExc l, OVal _ => OExc l
  | OExc l, OExc l' => OExc (l ++ l')
  end.
Definition lift {A B} (f : A -> B) (r : outcome A) : outcome B :=
  match r with OVal a => OVal (f a) | OExc l => OExc l | OCrash e => OCrash e end.
(* awaited in place: an exception or crash ends the walk *)
Definition proceed {A B} (r : outcome A) (k : A -> M B) : M B :=
  match r with OVal a => k a | OExc l => ret (OExc l) | OCrash e => ret (OCrash e) end.

Definition cons_field (k : string) (o : option pyval) (kv : list (string * pyval)) : list (string * pyval) :=
  match o with Some v => (k, v) :: kv | None => kv end.

Lemma match_none {A} (v : pyval) (a b : A) : match v with PNone => a | _ => b end = if is_none v then a else b.
Proof. destruct v; reflexivity. Qed.

Section Lists.
Variable rf : string -> list fnode -> M (option pyval).

Lemma conc_cons k ns rest s :
  exec_fields_conc rf ((k, ns) :: rest) s =
  andthen (rf k ns) (fun r => andthen (exec_fields_conc rf rest) (fun rs => ret (merge (cons_field k) r rs))) s.
Proof.
  cbn [exec_fields_conc]. unfold andthen. destruct (rf k ns s) as [r s1].
  destruct (exec_fields_conc rf rest s1) as [rs s2]. destruct r as [[v|]|l|e], rs; reflexivity.
Qed.

Lemma seq_cons k ns rest s :
  exec_fields_seq rf ((k, ns) :: rest) s =
  andthen (rf k ns) (fun r => proceed r (fun o =>
    andthen (exec_fields_seq rf rest) (fun rs => ret (lift (cons_field k o) rs)))) s.
Proof.
  cbn [exec_fields_seq]. unfold andthen, proceed. destruct (rf k ns s) as [[o|l|e] s1]; try reflexivity.
  destruct (exec_fields_seq rf rest s1) as [[kv|l|e] s2]; reflexivity.
Qed.

Lemma pass1_cons isc k ns rest s :
  mixed_pass1 isc rf ((k, ns) :: rest) s =
  (if isc k ns then andthen (mixed_pass1 isc rf rest) (fun rs => ret (lift (cons None) rs))
   else andthen (rf k ns) (fun r => proceed r (fun o =>
          andthen (mixed_pass1 isc rf rest) (fun rs => ret (lift (cons (Some o)) rs))))) s.
Proof.
  cbn [mixed_pass1]. unfold andthen, proceed. destruct (isc k ns).
  - destruct (mixed_pass1 isc rf rest s) as [[slots|l|e] s1]; reflexivity.
  - destruct (rf k ns s) as [[o|l|e] s1]; try reflexivity.
    destruct (mixed_pass1 isc rf rest s1) as [[slots|l|e] s2]; reflexivity.
Qed.

(* a slot filled by the first pass is a result already awaited *)
Lemma pass2_cons k ns rest slot srest s :
  mixed_pass2 rf ((k, ns) :: rest) (slot :: srest) s =
  andthen (match slot with Some o => ret (OVal o) | None => rf k ns end)
    (fun r => andthen (mixed_pass2 rf rest srest) (fun rs => ret (merge (cons_field k) r rs))) s.
Proof.
  cbn [mixed_pass2]. unfold andthen, ret. destruct slot as [o|].
  - destruct (mixed_pass2 rf rest srest s) as [[kv|l|e] s2]; reflexivity.
  - destruct (rf k ns s) as [r s1]. destruct (mixed_pass2 rf rest srest s1) as [rs s2].
    destruct r as [[v|]|l|e], rs; reflexivity.
Qed.

Lemma mixed_eq isc fs s :
  exec_fields_mixed isc rf fs s = andthen (mixed_pass1 isc rf fs) (fun r => proceed r (mixed_pass2 rf fs)) s.
Proof.
  unfold exec_fields_mixed, andthen. destruct (mixed_pass1 isc rf fs s) as [[slots|l|e] s1]; reflexivity.
Qed.
End Lists.

Lemma items_cons (ci : pyval -> list pkey -> M pyval) path i x xs s :
  complete_items ci path i (x :: xs) s =
  andthen (ci x (path ++ [KIdx i])) (fun r =>
    andthen (complete_items ci path (i + 1)%Z xs) (fun rs => ret (merge cons r rs))) s.
Proof.
  cbn [complete_items]. unfold andthen. destruct (ci x (path ++ [KIdx i]) s) as [r s1].
  destruct (complete_items ci path (i + 1)%Z xs s1) as [rs s2]. destruct r, rs; reflexivity.
Qed.

Lemma complete_items_ext (ci ci' : pyval -> list pkey -> M pyval) path :
  (forall x q s, ci x q s = ci' x q s) ->
  forall xs i s, complete_items ci path i xs s = complete_items ci' path i xs s.
Proof.
  intros H. induction xs as [|x xs IH]; intros i s; [reflexivity|].
  cbn [complete_items]. rewrite H. destruct (ci' x (path ++ [KIdx i]) s) as [r s1]. now rewrite IH.
Qed.

Definition catch (nodes : list fnode) (p : list pkey) (t : ty) (m : M pyval) : M pyval :=
  andthen m (fun r => match r with OExc l => handle_field_error l nodes p t | _ => ret r end).

Lemma handle_field_error_eq l nodes p t s :
  handle_field_error l nodes p t s =
  if is_non_null t then (OExc (map (locate (locs_of nodes) p) l), s)
  else (OVal PNone, add_errors (map (locate (locs_of nodes) p) l) s).
Proof. reflexivity. Qed.

Section Coercer.
Variable nodes : list fnode.
Variable leaf : string -> pyval -> list pkey -> M pyval.

(* an exception instance returned as a value is raised; anything else goes down the coercer chain *)
Definition completed (t : ty) (v : pyval) (p : list pkey) : M pyval :=
  match is_exc_value v with
  | Some e => ret (OExc [e])
  | None => coerce_output nodes leaf t v p
  end.

Lemma coerce_output_list t v p s :
  coerce_output nodes leaf (TList t) v p s =
  match v with
  | PNone => ret (OVal PNone) s
  | PList items =>
      andthen (complete_items (fun x q => catch nodes q t (completed t x q)) p 0%Z items)
              (fun r => ret (lift PList r)) s
  | _ => ret (OExc [engine_err "not-a-list"]) s
  end.
Proof.
  cbn [coerce_output]. destruct v; try reflexivity. unfold andthen.
  rewrite (complete_items_ext _ (fun x q => catch nodes q t (completed t x q))).
  - match goal with |- context [complete_items ?ci p 0%Z l s] => destruct (complete_items ci p 0%Z l s) as [[r|r|r] s1] end;
      reflexivity.
  - intros x q s0. unfold catch, completed, andthen. destruct (is_exc_value x); [reflexivity|].
    destruct (coerce_output nodes leaf t x q s0) as [[]]; reflexivity.
Qed.

Lemma coerce_output_nonnull t v p s :
  coerce_output nodes leaf (TNonNull t) v p s =
  andthen (coerce_output nodes leaf t v p)
    (fun r => ret (match r with OVal PNone => OExc [engine_err "null-for-non-null"] | _ => r end)) s.
Proof.
  cbn [coerce_output]. unfold andthen. destruct (coerce_output nodes leaf t v p s) as [[[]| |] s1]; reflexivity.
Qed.
End Coercer.

Section Exec.
Variable sch : schema.
Variable doc : document.
Variable vs : vars.
Variable U : usercode.
Variable cfg : config.

Lemma exec_sub_eq rf nodes otype value opath s :
  exec_sub sch doc vs cfg rf nodes otype value opath s =
  match collect_subfields sch doc vs COLLECT_FUEL otype nodes [] [] with
  | None => ret (OCrash KeyError) s
  | Some sub => andthen (exec_fields_mixed (field_conc cfg otype) (fun k ns => rf otype value opath k ns) sub)
                        (fun r => ret (lift PDict r)) s
  end.
Proof.
  unfold exec_sub, andthen. destruct (collect_subfields _ _ _ _ _ _ _ _); [|reflexivity].
  destruct (exec_fields_mixed _ _ _ s) as [[kv|l|e] s1]; reflexivity.
Qed.

Definition scalar_leaf (n : string) (v : pyval) : outcome pyval :=
  match scalars sch n with
  | Some ops =>
      match s_output ops v with
      | Ok r => if is_undef r then OExc [engine_err "scalar-undefined"] else OVal r
      | Raise OutOfFuel => OCrash OutOfFuel
      | Raise _ => OExc [engine_err "scalar-coerce-output"]
      end
  | None => OExc [engine_err "scalar-not-callable"]
  end.

Definition enum_leaf (values : list string) (v : pyval) : outcome pyval :=
  match v with
  | PStr x => if mem_str x values then OVal v else OExc [engine_err "enum-unknown-value"]
  | _ => OExc [engine_err "enum-unknown-value"]
  end.

(* the runtime object type of a value at an abstract position: the most specific type resolver, then
   ensure_valid_runtime_type *)
Definition abstract_type (ptype : string) (fd : field_def) (nodes : list fnode) (path : list pkey)
           (n : string) (v : pyval) : outcome string :=
  match match type_resolver_kind U n ptype (fd_name fd) with
        | TRDefault => URet (default_type_resolver v)
        | TRCustom => type_resolver U path n v
        end with
  | URaise msg _ ext => OExc [user_raise msg ext]
  | URet t => resolve_runtime_type sch n t nodes
  end.
(* a custom type resolver is an invocation of user code *)
Definition abstract_state (ptype : string) (fd : field_def) (path : list pkey) (n : string) (v : pyval) (s : st) : st :=
  match type_resolver_kind U n ptype (fd_name fd) with
  | TRDefault => s
  | TRCustom => add_call (CTypeResolver path n v) s
  end.

Definition abstract_leaf (rf : rfun) (ptype : string) (fd : field_def) (nodes : list fnode) (path : list pkey)
           (n : string) (v : pyval) (lp : list pkey) : M pyval :=
  fun s => match abstract_type ptype fd nodes path n v with
           | OVal rt => exec_sub sch doc vs cfg rf nodes rt v lp (abstract_state ptype fd path n v s)
           | OExc l => ret (OExc l) (abstract_state ptype fd path n v s)
           | OCrash e => ret (OCrash e) (abstract_state ptype fd path n v s)
           end.

Lemma abstract_state_errors ptype fd path n v s : s_errors (abstract_state ptype fd path n v s) = s_errors s.
Proof. unfold abstract_state. now destruct (type_resolver_kind U n ptype (fd_name fd)). Qed.

Lemma leaf_coercer_eq rf ptype fd nodes path n v lp s :
  leaf_coercer sch doc vs U cfg rf ptype fd nodes path n v lp s =
  match find_type sch n with
  | Some (DInput _) | None => ret (OExc [engine_err "no-output-coercer"]) s
  | Some k =>
      if is_none v then ret (OVal PNone) s
      else match k with
           | DScalar => ret (scalar_leaf n v) s
           | DEnum values => ret (enum_leaf values v) s
           | DObject _ _ => exec_sub sch doc vs cfg rf nodes n v lp s
           | _ => abstract_leaf rf ptype fd nodes path n v lp s
           end
  end.
Proof.
  unfold leaf_coercer, abstract_leaf. destruct (find_type sch n) as [[ |values|ins|ifs fs|ifields|ms]|]; try reflexivity.
  (* interface, union *)
  4,5: rewrite (match_none v); unfold abstract_type, abstract_state;
    (destruct (type_resolver_kind U n ptype (fd_name fd)); [|destruct (type_resolver U path n v)]); reflexivity.
  - rewrite (match_none v). destruct (is_none v); [reflexivity|]. unfold scalar_leaf.
    destruct (scalars sch n) as [ops|]; [|reflexivity]. destruct (s_output ops v) as [r|[]]; try reflexivity.
    destruct (is_undef r); reflexivity.
  - unfold enum_leaf. destruct v; try reflexivity. destruct (mem_str s0 values); reflexivity.
  - rewrite (match_none v). reflexivity.
Qed.

(* what a leaf raises by itself is one exception without a path, carrying no locations or the field nodes' *)
Definition fresh_exn (nodes : list fnode) (l : list perr) : Prop :=
  exists e, l = [e] /\ p_path e = None /\ (p_locs e = None \/ p_locs e = Some (locs_of nodes)).

Lemma fresh_exn_raw nodes m x : fresh_exn nodes [raw_err m x].
Proof. eexists. split; [reflexivity|]. split; [reflexivity|now left]. Qed.

Lemma scalar_leaf_fresh nodes n v l : scalar_leaf n v = OExc l -> fresh_exn nodes l.
Proof.
  unfold scalar_leaf. destruct (scalars sch n) as [ops|]; [|intros H; inversion H; apply fresh_exn_raw].
  destruct (s_output ops v) as [r|[]]; try (intros H; inversion H; apply fresh_exn_raw).
  destruct (is_undef r); [intros H; inversion H; apply fresh_exn_raw|discriminate].
Qed.

Lemma enum_leaf_fresh nodes values v l : enum_leaf values v = OExc l -> fresh_exn nodes l.
Proof.
  unfold enum_leaf. destruct v; try (intros H; inversion H; apply fresh_exn_raw).
  destruct (mem_str s values); [discriminate|intros H; inversion H; apply fresh_exn_raw].
Qed.

Lemma resolve_runtime_type_fresh n t nodes l : resolve_runtime_type sch n t nodes = OExc l -> fresh_exn nodes l.
Proof.
  assert (H1 : forall m, fresh_exn nodes [{| p_path := None; p_locs := Some (locs_of nodes); p_msg := m; p_ext := false |}]).
  { eexists. split; [reflexivity|]. split; [reflexivity|now right]. }
  unfold resolve_runtime_type. destruct t; try (intros H; inversion H; apply H1).
  destruct (find_type sch s) as [[ | | |ifs fs| | ]|]; try (intros H; inversion H; apply H1).
  destruct (mem_str s (possible_types sch n)); [discriminate|intros H; inversion H; apply H1].
Qed.

Lemma resolve_runtime_type_val n t nodes rt :
  resolve_runtime_type sch n t nodes = OVal rt ->
  t = PStr rt /\ mem_str rt (possible_types sch n) = true /\ exists ifs fs, find_type sch rt = Some (DObject ifs fs).
Proof.
  unfold resolve_runtime_type. destruct t; try discriminate.
  destruct (find_type sch s) as [[ | | |ifs fs| | ]|] eqn:E; try discriminate.
  destruct (mem_str s (possible_types sch n)) eqn:Em; [|discriminate].
  intros H; inversion H; subst. eauto.
Qed.

Lemma abstract_type_fresh ptype fd nodes path n v l : abstract_type ptype fd nodes path n v = OExc l -> fresh_exn nodes l.
Proof.
  unfold abstract_type.
  destruct (match type_resolver_kind U n ptype (fd_name fd) with TRDefault => _ | TRCustom => _ end) as [t|msg g ext].
  - apply resolve_runtime_type_fresh.
  - intros H; inversion H. apply fresh_exn_raw.
Qed.

Lemma abstract_type_no_crash ptype fd nodes path n v e : abstract_type ptype fd nodes path n v <> OCrash e.
Proof.
  unfold abstract_type, resolve_runtime_type.
  destruct (match type_resolver_kind U n ptype (fd_name fd) with TRDefault => _ | TRCustom => _ end) as [t|msg g ext];
    [|discriminate].
  destruct t; try discriminate. destruct (find_type sch s) as [[ | | |ifs fs| | ]|]; try discriminate.
  destruct (mem_str s (possible_types sch n)); discriminate.
Qed.

Lemma is_exc_value_fresh nodes v e : is_exc_value v = Some e -> fresh_exn nodes [e].
Proof. destruct v; try discriminate. destruct e0; intros H; inversion H; apply fresh_exn_raw. Qed.

Lemma complete_field_eq rf ptype fd nodes path raw s :
  complete_field sch doc vs U cfg rf ptype fd nodes path raw s =
  andthen (catch nodes path (fd_type fd)
             (match raw with
              | OVal v => completed nodes (leaf_coercer sch doc vs U cfg rf ptype fd nodes path) (fd_type fd) v path
              | OExc l => ret (OExc l)
              | OCrash e => ret (OCrash e)
              end))
          (fun r => ret (lift Some r)) s.
Proof.
  unfold complete_field, catch, completed, andthen, ret. destruct raw as [v|l|e]; [destruct (is_exc_value v)|..].
  - destruct (handle_field_error _ _ _ _ s) as [[]]; reflexivity.
  - destruct (coerce_output _ _ _ _ _ s) as [[x|l|e] s1]; try reflexivity.
    destruct (handle_field_error _ _ _ _ s1) as [[]]; reflexivity.
  - destruct (handle_field_error _ _ _ _ s) as [[]]; reflexivity.
  - reflexivity.
Qed.

(* resolve_field_value_or_error without its state: what is raised, and the resolver invocation if any *)
Definition resolved (ptype : string) (source : pyval) (path : list pkey) (fd : field_def) (node : fnode)
  : outcome pyval * list call :=
  if String.eqb (fn_name node) "__typename" then (OVal (PStr ptype), [])
  else
    match coerce_arguments sch 20 (fd_args fd) (fn_loc node) (fn_args node) vs with
    | Raise e => (OCrash e, [])
    | Ok (_, (e :: es) as aerrs) =>
        (OExc (map (fun ae : aerr => {| p_path := None; p_locs := Some [snd ae];
                                        p_msg := MEngine "argument"; p_ext := false |}) aerrs), [])
    | Ok (args, []) =>
        if has_resolver U ptype (fd_name fd)
        then (match resolver U path ptype (fd_name fd) source args with
              | URet v => OVal v
              | URaise msg _ ext => OExc [user_raise msg ext]
              end, [CResolver path ptype (fd_name fd) source args])
        else (OVal (default_field_resolver source (fd_name fd)), [])
    end.

Lemma resolve_value_eq ptype source path fd node s :
  resolve_value sch vs U ptype source path fd node s =
  (fst (resolved ptype source path fd node),
   {| s_errors := s_errors s; s_log := s_log s ++ snd (resolved ptype source path fd node) |}).
Proof.
  assert (Hs : {| s_errors := s_errors s; s_log := s_log s ++ [] |} = s) by (rewrite app_nil_r; now destruct s).
  unfold resolve_value, resolved. destruct (String.eqb (fn_name node) "__typename"); cbn [fst snd]; [now rewrite Hs|].
  destruct (coerce_arguments sch 20 _ _ _ vs) as [[args [|ae aes]]|e]; cbn [fst snd]; try now rewrite Hs.
  destruct (has_resolver U ptype (fd_name fd)); cbn [fst snd]; [|now rewrite Hs].
  destruct (resolver U path ptype (fd_name fd) source args); reflexivity.
Qed.

Lemma resolved_log ptype source path fd node :
  snd (resolved ptype source path fd node) = [] \/
  exists args, snd (resolved ptype source path fd node) = [CResolver path ptype (fd_name fd) source args].
Proof.
  unfold resolved. destruct (String.eqb (fn_name node) "__typename"); [now left|].
  destruct (coerce_arguments sch 20 _ _ _ vs) as [[args [|ae aes]]|e]; try now left.
  destruct (has_resolver U ptype (fd_name fd)); [right; now exists args|now left].
Qed.

Lemma resolved_unlocated ptype source path fd node l :
  fst (resolved ptype source path fd node) = OExc l -> l <> [] /\ Forall (fun e => p_path e = None) l.
Proof.
  unfold resolved. destruct (String.eqb (fn_name node) "__typename"); [discriminate|].
  destruct (coerce_arguments sch 20 _ _ _ vs) as [[args [|ae aes]]|e]; try discriminate.
  - destruct (has_resolver U ptype (fd_name fd)); [|discriminate].
    destruct (resolver U path ptype (fd_name fd) source args); [discriminate|].
    intros H; inversion H. split; [discriminate|repeat constructor].
  - intros H; inversion H. split; [discriminate|].
    constructor; [reflexivity|]. apply Forall_map, Forall_forall. reflexivity.
Qed.

Lemma resolve_field_body_eq rf ptype source ppath key node rest s :
  resolve_field_body sch doc vs U cfg rf ptype source ppath key (node :: rest) s =
  match get_field_definition sch ptype (fn_name node) with
  | None => ret (OVal None) s
  | Some fd =>
      andthen (resolve_value sch vs U ptype source (ppath ++ [KName key]) fd node)
        (fun raw => match raw with
                    | OCrash e => ret (OCrash e)
                    | _ => complete_field sch doc vs U cfg rf ptype fd (node :: rest) (ppath ++ [KName key]) raw
                    end) s
  end.
Proof.
  unfold resolve_field_body, andthen. destruct (get_field_definition sch ptype (fn_name node)); [|reflexivity].
  destruct (resolve_value _ _ _ _ _ _ _ _ s) as [[]]; reflexivity.
Qed.

Definition finish (x : outcome (list (string * pyval)) * st) : outcome response :=
  match x with
  | (OVal kv, s) => OVal {| r_data := PDict kv; r_errors := s_errors s; r_log := s_log s |}
  | (OExc l, s) => OVal {| r_data := PNone; r_errors := s_errors (add_errors l s); r_log := s_log s |}
  | (OCrash e, _) => OCrash e
  end.

Definition run_operation (op : operation) (rt : string) (root : pyval) (fs : fields) : M (list (string * pyval)) :=
  let rf := fun k ns => resolve_field sch doc vs U cfg EXEC_FUEL rt root [] k ns in
  match o_kind op with
  | OpMutation => exec_fields_seq rf fs
  | _ => exec_fields_mixed (field_conc cfg rt) rf fs
  end.

Lemma execute_operation_eq op root :
  execute_operation sch doc vs U cfg op root =
  match root_type_of sch (o_kind op) with
  | None => OCrash KeyError
  | Some rt =>
      match collect_fields sch doc vs COLLECT_FUEL rt (o_sels op) [] [] with
      | None => OCrash KeyError
      | Some (fs, _) => finish (run_operation op rt root fs st0)
      end
  end.
Proof. reflexivity. Qed.

End Exec.
