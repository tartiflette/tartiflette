(* collect_fields (accumulator-passing, one shared ordered dict and visited set) computes the
   grouping of the specification's ordered traversal; consequences for response keys. *)
From Coq Require Import List String Bool.
From TV Require Import Model.Schema Model.ImplInput Model.ImplExec Model.SpecExec Proofs.ListFacts.
Import ListNotations.

Open Scope list_scope.

Section Collect.
Variable sch : schema.
Variable doc : document.
Variable vs : vars.

Lemma group_fields_app a b acc : group_fields (a ++ b) acc = group_fields b (group_fields a acc).
Proof. apply fold_left_app. Qed.

Theorem collect_fields_refines_spec : forall fuel rt sels acc visited,
  collect_fields sch doc vs fuel rt sels acc visited =
  match spec_collect sch doc vs fuel rt sels visited with
  | Some (flat, v) => Some (group_fields flat acc, v)
  | None => None
  end.
Proof.
  induction fuel as [|fuel IH]; intros rt sels acc visited; [reflexivity|].
  cbn [collect_fields spec_collect].
  revert acc visited.
  induction sels as [|sel rest IHs]; intros acc visited; [reflexivity|].
  destruct sel as [l alias name args dirs sub | l name dirs | l tc dirs sub].
  - destruct (should_include sch vs dirs).
    + rewrite IHs.
      (* the scrutinee is the specification's inner `fix go` on `rest`, which has no name once unfolded *)
      match goal with |- context [match ?g with Some _ => _ | None => _ end] =>
        destruct g as [[flat v]|] end; reflexivity.
    + apply IHs.
  - destruct (mem_str name visited || negb (should_include sch vs dirs)); [apply IHs|].
    destruct (find_fragment (fragments doc) name) as [fr|]; [|reflexivity].
    destruct (condition_matches sch (Some (fr_type fr)) rt); [|apply IHs].
    rewrite IH.
    destruct (spec_collect sch doc vs fuel rt (fr_sels fr) (name :: visited)) as [[flat1 v1]|]; [|reflexivity].
    rewrite IHs.
    match goal with |- context [match ?g with Some _ => _ | None => _ end] =>
      destruct g as [[flat2 v2]|] end; [|reflexivity].
    now rewrite group_fields_app.
  - destruct (should_include sch vs dirs && condition_matches sch tc rt); [|apply IHs].
    rewrite IH.
    destruct (spec_collect sch doc vs fuel rt sub visited) as [[flat1 v1]|]; [|reflexivity].
    rewrite IHs.
    match goal with |- context [match ?g with Some _ => _ | None => _ end] =>
      destruct g as [[flat2 v2]|] end; [|reflexivity].
    now rewrite group_fields_app.
Qed.

Lemma spec_collect_app fuel rt a : forall b v,
  spec_collect sch doc vs (S fuel) rt (a ++ b) v =
  match spec_collect sch doc vs (S fuel) rt a v with
  | Some (f1, v1) =>
      match spec_collect sch doc vs (S fuel) rt b v1 with
      | Some (f2, v2) => Some (f1 ++ f2, v2)
      | None => None
      end
  | None => None
  end.
Proof.
  cbn [spec_collect].
  induction a as [|sel rest IH]; intros b v.
  - simpl. match goal with |- ?x = _ => destruct x as [[f2 v2]|] end; reflexivity.
  - cbn [app]. destruct sel as [l alias name args dirs sub | l name dirs | l tc dirs sub].
    + destruct (should_include sch vs dirs); [|apply IH].
      rewrite IH.
      match goal with |- context [match (?f rest v) with _ => _ end] => destruct (f rest v) as [[f1 v1]|] end; [|reflexivity].
      match goal with |- context [match (?f b v1) with _ => _ end] => destruct (f b v1) as [[f2 v2]|] end; reflexivity.
    + destruct (mem_str name v || negb (should_include sch vs dirs)); [apply IH|].
      destruct (find_fragment (fragments doc) name) as [fr|]; [|reflexivity].
      destruct (condition_matches sch (Some (fr_type fr)) rt); [|apply IH].
      destruct (spec_collect sch doc vs fuel rt (fr_sels fr) (name :: v)) as [[g1 w1]|]; [|reflexivity].
      rewrite IH.
      match goal with |- context [match (?f rest w1) with _ => _ end] => destruct (f rest w1) as [[f1 v1]|] end; [|reflexivity].
      match goal with |- context [match (?f b v1) with _ => _ end] => destruct (f b v1) as [[f2 v2]|] end; [|reflexivity].
      now rewrite app_assoc.
    + destruct (should_include sch vs dirs && condition_matches sch tc rt); [|apply IH].
      destruct (spec_collect sch doc vs fuel rt sub v) as [[g1 w1]|]; [|reflexivity].
      rewrite IH.
      match goal with |- context [match (?f rest w1) with _ => _ end] => destruct (f rest w1) as [[f1 v1]|] end; [|reflexivity].
      match goal with |- context [match (?f b v1) with _ => _ end] => destruct (f b v1) as [[f2 v2]|] end; [|reflexivity].
      now rewrite app_assoc.
Qed.

(* collect_subfields = CollectFields(MergeSelectionSets(fields)) *)
Lemma collect_subfields_refines_spec fuel rt nodes : forall acc visited,
  collect_subfields sch doc vs (S fuel) rt nodes acc visited =
  match spec_collect sch doc vs (S fuel) rt (flat_map (fun n => fn_sels n) nodes) visited with
  | Some (flat, _) => Some (group_fields flat acc)
  | None => None
  end.
Proof.
  induction nodes as [|n rest IH]; intros acc visited; [reflexivity|].
  cbn [collect_subfields flat_map]. rewrite spec_collect_app.
  destruct (fn_sels n) as [|sel sels].
  - rewrite IH. cbn [spec_collect].
    match goal with |- context [match ?g with Some _ => _ | None => _ end] => destruct g as [[f2 v2]|] end; reflexivity.
  - rewrite collect_fields_refines_spec.
    destruct (spec_collect sch doc vs (S fuel) rt (sel :: sels) visited) as [[f1 v1]|]; [|reflexivity].
    rewrite IH.
    match goal with |- context [match ?g with Some _ => _ | None => _ end] => destruct g as [[f2 v2]|] end; [|reflexivity].
    now rewrite group_fields_app.
Qed.

Lemma collect_subfields_is_spec rt nodes :
  collect_subfields sch doc vs COLLECT_FUEL rt nodes [] [] =
  spec_collect_fields sch doc vs COLLECT_FUEL rt (flat_map (fun n => fn_sels n) nodes).
Proof. unfold COLLECT_FUEL, spec_collect_fields. now rewrite collect_subfields_refines_spec. Qed.

Definition keys (fs : fields) : list string := map fst fs.

Lemma fields_add_keys k f fs :
  keys (fields_add k f fs) = if mem_str k (keys fs) then keys fs else keys fs ++ [k].
Proof.
  induction fs as [|[k' l] fs IH]; cbn [fields_add keys map mem_str fst]; [reflexivity|].
  destruct (String.eqb k k'); cbn [orb map fst]; [reflexivity|].
  fold (keys (fields_add k f fs)). rewrite IH. fold (keys fs).
  destruct (mem_str k (keys fs)); reflexivity.
Qed.

Lemma fields_add_nodup k f fs : NoDup (keys fs) -> NoDup (keys (fields_add k f fs)).
Proof.
  intros H. rewrite fields_add_keys. destruct (mem_str k (keys fs)) eqn:E; [exact H|].
  apply NoDup_snoc; [exact H|]. intro Hin. apply mem_str_iff in Hin. congruence.
Qed.

(* every response key appears once *)
Theorem group_fields_nodup flat : forall acc, NoDup (keys acc) -> NoDup (keys (group_fields flat acc)).
Proof.
  induction flat as [|[k f] flat IH]; intros acc H; [exact H|].
  apply IH. now apply fields_add_nodup.
Qed.

Fixpoint first_appearance (l : list string) (seen : list string) : list string :=
  match l with
  | [] => []
  | x :: l' => if mem_str x seen then first_appearance l' seen
               else x :: first_appearance l' (seen ++ [x])
  end.

Lemma mem_str_app x a b : mem_str x (a ++ b) = mem_str x a || mem_str x b.
Proof. induction a as [|y a IH]; cbn; [reflexivity|]. now rewrite IH, orb_assoc. Qed.

Theorem group_fields_order flat : forall acc,
  keys (group_fields flat acc) = keys acc ++ first_appearance (map fst flat) (keys acc).
Proof.
  induction flat as [|[k f] flat IH]; intros acc; cbn [group_fields fold_left map fst first_appearance].
  - now rewrite app_nil_r.
  - rewrite IH, fields_add_keys.
    destruct (mem_str k (keys acc)); [reflexivity|].
    now rewrite <- app_assoc.
Qed.

Fixpoint nodes_of (k : string) (fs : fields) : list fnode :=
  match fs with
  | [] => []
  | (k', l) :: fs' => if String.eqb k k' then l else nodes_of k fs'
  end.

Lemma nodes_of_add k k' f fs :
  nodes_of k (fields_add k' f fs) = if String.eqb k k' then nodes_of k fs ++ [f] else nodes_of k fs.
Proof.
  induction fs as [|[k2 l] fs IH]; cbn [fields_add nodes_of]; [reflexivity|].
  destruct (String.eqb k' k2) eqn:E2; cbn [nodes_of].
  - apply String.eqb_eq in E2; subst k2.
    destruct (String.eqb k k'); reflexivity.
  - destruct (String.eqb k k2) eqn:E; [|exact IH].
    apply String.eqb_eq in E; subst k2.
    destruct (String.eqb k k') eqn:E3; [|reflexivity].
    apply String.eqb_eq in E3; subst k'. rewrite String.eqb_refl in E2. discriminate.
Qed.

(* each group holds exactly the fields with that key, in order *)
Theorem group_fields_nodes flat : forall acc k,
  NoDup (keys acc) ->
  nodes_of k (group_fields flat acc) =
  nodes_of k acc ++ map snd (filter (fun kn => String.eqb k (fst kn)) flat).
Proof.
  induction flat as [|[k' f] flat IH]; intros acc k Hnd; cbn [group_fields fold_left filter map].
  - now rewrite app_nil_r.
  - rewrite IH by now apply fields_add_nodup.
    rewrite nodes_of_add. cbn [fst].
    destruct (String.eqb k k'); [now rewrite <- app_assoc|reflexivity].
Qed.

End Collect.
