(* Laws of the Date / Time / DateTime scalars over Model/Temporal.v, for ALL dates and times:
   canonical strings of real calendar / clock values are accepted and denote that value; whatever is
   accepted is a real calendar / clock value; result coercion renders the canonical string;
   literal = variable.  (Properties/C10Temporal.v puts them together: input and output are mutually
   inverse on what input produces.) *)
From Coq Require Import ZArith List String Ascii Bool Lia.
From TV Require Import Py.Prelude Gen.Scalars_gen Model.Temporal.
Import ListNotations.

Open Scope Z_scope.

Lemma digit_cases d : 0 <= d <= 9 -> d = 0 \/ d = 1 \/ d = 2 \/ d = 3 \/ d = 4 \/ d = 5 \/ d = 6 \/ d = 7 \/ d = 8 \/ d = 9.
Proof. lia. Qed.

Lemma digit_of_ascii_of_digit d : 0 <= d <= 9 -> digit_of (ascii_of_digit d) = Some d.
Proof. intros H. destruct (digit_cases d H) as [->|[->|[->|[->|[->|[->|[->|[->|[->| ->]]]]]]]]]; reflexivity. Qed.

Lemma ascii_of_digit_not_T d : 0 <= d <= 9 -> Ascii.eqb (ascii_of_digit d) "T"%char = false.
Proof. intros H. destruct (digit_cases d H) as [->|[->|[->|[->|[->|[->|[->|[->|[->| ->]]]]]]]]]; reflexivity. Qed.

Lemma append_empty_r s : (s ++ "")%string = s.
Proof. induction s as [|c s IH]; [reflexivity|]. cbn. now rewrite IH. Qed.
Lemma append_assoc a b c : ((a ++ b) ++ c)%string = (a ++ (b ++ c))%string.
Proof. induction a as [|x a IH]; [reflexivity|]. cbn. now rewrite IH. Qed.

Lemma four_pad4 y rest : 0 <= y <= 9999 -> four (pad4 y ++ rest) = Some (y, rest).
Proof.
  (* y = 1000a + 100b + 10c + d with the digits the successive div / mod by 10; lia needs y/10/10 = y/100 and
     y/100/10 = y/1000 spelled out *)
  intros H. unfold pad4. cbn [append]. unfold four.
  rewrite !digit_of_ascii_of_digit.
  - f_equal. f_equal.
    pose proof (Z.div_mod y 10 ltac:(lia)).
    pose proof (Z.div_mod (y / 100) 10 ltac:(lia)). pose proof (Z.div_mod (y / 10) 10 ltac:(lia)).
    assert (y / 10 / 10 = y / 100) by (rewrite Z.div_div by lia; reflexivity).
    assert (y / 100 / 10 = y / 1000) by (rewrite Z.div_div by lia; reflexivity).
    lia.
  - pose proof (Z.mod_pos_bound y 10 ltac:(lia)). lia.
  - pose proof (Z.mod_pos_bound (y / 10) 10 ltac:(lia)). lia.
  - pose proof (Z.mod_pos_bound (y / 100) 10 ltac:(lia)). lia.
  - split; [apply Z.div_pos; lia|]. assert (y / 1000 < 10) by (apply Z.div_lt_upper_bound; lia). lia.
Qed.

Definition dir_ok (d : directive) (v : Z) : Prop :=
  match d with
  | DY => 0 <= v <= 9999 | Dm => 1 <= v <= 12 | Dd => 1 <= v <= 31
  | DH => 0 <= v <= 23 | DM | DS => 0 <= v <= 59
  end.
Definition render_dir (d : directive) (v : Z) : string := match d with DY => pad4 v | _ => pad2 v end.

(* the first alternative that matches decides, when the continuation accepts what it read *)
Fixpoint first_alt (alts : list alt) (s : string) : option (Z * string) :=
  match alts with
  | [] => None
  | a :: rest => match a s with Some p => Some p | None => first_alt rest s end
  end.
Lemma try_alts_first {R} alts (k : Z -> string -> option R) s v r x :
  first_alt alts s = Some (v, r) -> k v r = Some x -> try_alts alts k s = Some x.
Proof.
  induction alts as [|a alts IH]; cbn [first_alt try_alts]; [discriminate|].
  destruct (a s) as [[v' r']|]; [intros [= -> ->] ->; reflexivity|exact IH].
Qed.

(* The alternatives of the two-digit directives look at two characters at most, so what they do
   on a two-character text decides what they do when more text follows; and on the finitely many
   canonical two-digit texts what they do is computed. *)
Definition local2 (a : alt) : Prop :=
  forall c1 c2 rest,
    a (String c1 (String c2 rest)) =
    match a (String c1 (String c2 "")) with Some (v, r) => Some (v, (r ++ rest)%string) | None => None end.
Lemma one_local lo hi : local2 (one lo hi).
Proof. intros c1 c2 rest. cbn. now destruct (digit_in lo hi c1). Qed.
Lemma two_local lo1 hi1 lo2 hi2 : local2 (two lo1 hi1 lo2 hi2).
Proof. intros c1 c2 rest. cbn. now destruct (digit_in lo1 hi1 c1), (digit_in lo2 hi2 c2). Qed.
Lemma space_one_local lo hi : local2 (space_one lo hi).
Proof. intros c1 c2 rest. cbn. destruct (Ascii.eqb c1 " "); [|reflexivity]. now destruct (digit_in lo hi c2). Qed.

Lemma first_alt_local alts : Forall local2 alts -> forall c1 c2 rest,
  first_alt alts (String c1 (String c2 rest)) =
  match first_alt alts (String c1 (String c2 "")) with Some (v, r) => Some (v, (r ++ rest)%string) | None => None end.
Proof.
  induction 1 as [|a alts Ha _ IH]; intros c1 c2 rest; cbn [first_alt]; [reflexivity|].
  rewrite Ha. destruct (a (String c1 (String c2 ""))) as [[v r]|]; [reflexivity|apply IH].
Qed.

Lemma alts_local d : d <> DY -> Forall local2 (alts_of d).
Proof. destruct d; [contradiction|..]; repeat constructor; auto using one_local, two_local, space_one_local. Qed.

Definition reads_back (d : directive) (v : Z) : bool :=
  match first_alt (alts_of d) (pad2 v) with Some (v', EmptyString) => v' =? v | _ => false end.

Lemma reads_back_sound d v rest :
  d <> DY -> reads_back d v = true -> first_alt (alts_of d) (pad2 v ++ rest) = Some (v, rest).
Proof.
  intros Hd Hr. unfold reads_back, pad2 in *. cbn [append]. rewrite (first_alt_local _ (alts_local d Hd)).
  destruct (first_alt (alts_of d) _) as [[v' [|]]|]; try discriminate Hr. apply Z.eqb_eq in Hr. now subst v'.
Qed.

Fixpoint zrange (lo : Z) (n : nat) : list Z := match n with O => [] | S n' => lo :: zrange (lo + 1) n' end.
Lemma forallb_range p lo n v : forallb p (zrange lo n) = true -> lo <= v < lo + Z.of_nat n -> p v = true.
Proof.
  revert lo. induction n as [|n IH]; intros lo Hp H; [lia|]. apply andb_prop in Hp.
  destruct (Z.eq_dec v lo) as [->|Hne]; [tauto|]. apply (IH (lo + 1)); [tauto|lia].
Qed.

Lemma reads_back_table :
  forallb (reads_back Dm) (zrange 1 12) = true /\ forallb (reads_back Dd) (zrange 1 31) = true /\
  forallb (reads_back DH) (zrange 0 24) = true /\ forallb (reads_back DM) (zrange 0 60) = true /\
  forallb (reads_back DS) (zrange 0 60) = true.
Proof. vm_compute. repeat split. Qed.

(* every directive reads back the canonical spelling of a value in its range *)
Lemma dir_canon d v : dir_ok d v ->
  forall R (k : Z -> string -> option R) rest x,
    k v rest = Some x -> try_alts (alts_of d) k (render_dir d v ++ rest) = Some x.
Proof.
  intros H R k rest x. apply try_alts_first. destruct reads_back_table as (Tm & Td & TH & TM & TS).
  destruct d; cbn [dir_ok render_dir] in H |- *; [|apply reads_back_sound; [discriminate|]..].
  - cbn [alts_of first_alt]. now rewrite (four_pad4 v rest H).
  - apply (forallb_range _ _ _ _ Tm). lia.
  - apply (forallb_range _ _ _ _ Td). lia.
  - apply (forallb_range _ _ _ _ TH). lia.
  - apply (forallb_range _ _ _ _ TM). lia.
  - apply (forallb_range _ _ _ _ TS). lia.
Qed.

Definition get_field (d : directive) (f : fields) : Z :=
  match d with DY => fY f | Dm => fm f | Dd => fd f | DH => fH f | DM => fM f | DS => fS f end.

Fixpoint render_format (items : list fitem) (f : fields) : string :=
  match items with
  | [] => ""
  | FLit c :: r => String c (render_format r f)
  | FDir d :: r => render_dir d (get_field d f) ++ render_format r f
  end.
Fixpoint set_fields (items : list fitem) (f f0 : fields) : fields :=
  match items with
  | [] => f0
  | FLit _ :: r => set_fields r f f0
  | FDir d :: r => set_fields r f (set_field d (get_field d f) f0)
  end.
Definition item_ok (f : fields) (it : fitem) : Prop :=
  match it with FDir d => dir_ok d (get_field d f) | FLit _ => True end.

Lemma match_format_render items f : Forall (item_ok f) items -> forall f0 rest,
  match_format items f0 (render_format items f ++ rest) = Some (set_fields items f f0, rest).
Proof.
  induction 1 as [|[d|c] items Hit _ IH]; intros f0 rest; cbn [render_format match_format set_fields].
  - reflexivity.
  - rewrite append_assoc. apply dir_canon; [exact Hit|]. apply IH.
  - cbn [append]. unfold ci_eqb. rewrite Ascii.eqb_refl. apply IH.
Qed.

Lemma valid_date_range y m d : valid_date y m d = true -> 1 <= y <= 9999 /\ 1 <= m <= 12 /\ 1 <= d <= 31.
Proof.
  unfold valid_date, days_in_month.
  destruct (m =? 2); [destruct (leap y)|destruct ((m =? 4) || (m =? 6) || (m =? 9) || (m =? 11))%bool]; lia.
Qed.
Lemma valid_time_range h mi s : valid_time h mi s = true -> 0 <= h <= 23 /\ 0 <= mi <= 59 /\ 0 <= s <= 59.
Proof.
  intros H. repeat (apply andb_prop in H; destruct H as [H ?]).
  lia.
Qed.

(* f: a real date and time that has the defaults where the format says nothing *)
Theorem strptime_render fmt items f :
  parse_format fmt = Some items ->
  valid_date (fY f) (fm f) (fd f) = true -> valid_time (fH f) (fM f) (fS f) = true ->
  set_fields items f fields0 = f ->
  strptime fmt (render_format items f) = Ok (mk_datetime (fY f) (fm f) (fd f) (fH f) (fM f) (fS f) 0).
Proof.
  intros Hp Hd Ht Hf. unfold strptime. rewrite Hp, <- (append_empty_r (render_format items f)).
  rewrite match_format_render, Hf, Hd, Ht; [reflexivity|].
  destruct (valid_date_range _ _ _ Hd) as (? & ? & ?), (valid_time_range _ _ _ Ht) as (? & ? & ?).
  apply Forall_forall. intros [[]|c] _; cbn; lia || exact I.
Qed.

Definition date_items := [FDir DY; FLit "-"%char; FDir Dm; FLit "-"%char; FDir Dd].
Definition time_items := [FDir DH; FLit ":"%char; FDir DM; FLit ":"%char; FDir DS].
Definition datetime_items := (date_items ++ FLit "T"%char :: time_items)%list.
Lemma parse_date_format : parse_format "%Y-%m-%d" = Some date_items.
Proof. reflexivity. Qed.
Lemma parse_time_format : parse_format "%H:%M:%S" = Some time_items.
Proof. reflexivity. Qed.
Lemma parse_datetime_format : parse_format "%Y-%m-%dT%H:%M:%S" = Some datetime_items.
Proof. reflexivity. Qed.

Local Arguments pad2 : simpl never.
Local Arguments pad4 : simpl never.
Theorem strptime_date y m d :
  valid_date y m d = true -> strptime "%Y-%m-%d" (iso_date y m d) = Ok (mk_datetime y m d 0 0 0 0).
Proof.
  intros Hv. set (f := {| fY := y; fm := m; fd := d; fH := 0; fM := 0; fS := 0 |}).
  exact (strptime_render _ _ f parse_date_format Hv eq_refl eq_refl).
Qed.

Theorem strptime_time h mi s :
  valid_time h mi s = true -> strptime "%H:%M:%S" (iso_time h mi s 0) = Ok (mk_datetime 1900 1 1 h mi s 0).
Proof.
  intros Hv. set (f := {| fY := 1900; fm := 1; fd := 1; fH := h; fM := mi; fS := s |}).
  exact (strptime_render _ _ f parse_time_format eq_refl Hv eq_refl).
Qed.

Theorem strptime_datetime y m d h mi s :
  valid_date y m d = true -> valid_time h mi s = true ->
  strptime "%Y-%m-%dT%H:%M:%S" (iso_date y m d ++ "T" ++ iso_time h mi s 0) = Ok (mk_datetime y m d h mi s 0).
Proof.
  intros Hv Hw. set (f := {| fY := y; fm := m; fd := d; fH := h; fM := mi; fS := s |}).
  exact (strptime_render _ _ f parse_datetime_format Hv Hw eq_refl).
Qed.

Lemma try_alts_some {R} alts (k : Z -> string -> option R) s x :
  try_alts alts k s = Some x -> exists v r, k v r = Some x.
Proof.
  induction alts as [|a alts IH]; cbn [try_alts]; [discriminate|].
  destruct (a s) as [[v r]|]; [|exact IH].
  destruct (k v r) as [y|] eqn:E; [|exact IH]. intros [= <-]. exists v, r. exact E.
Qed.

Lemma get_set_other d d' v f : d <> d' -> get_field d (set_field d' v f) = get_field d f.
Proof. destruct d, d'; try reflexivity; contradiction. Qed.

Lemma match_format_untouched d items : ~ In (FDir d) items -> forall f s f' r,
  match_format items f s = Some (f', r) -> get_field d f' = get_field d f.
Proof.
  induction items as [|it items IH]; intros Hu f s f' r; cbn [match_format].
  - intros H. inversion H. reflexivity.
  - assert (Hu' : ~ In (FDir d) items) by (intros Hin; apply Hu; now right).
    destruct it as [d'|c].
    + intros H. apply try_alts_some in H. destruct H as (v & r' & H). rewrite (IH Hu' _ _ _ _ H).
      apply get_set_other. intros ->. apply Hu. now left.
    + destruct s as [|c' s]; [discriminate|]. destruct (ci_eqb c c'); [|discriminate]. apply IH. exact Hu'.
Qed.

(* whatever is accepted is a real calendar / clock value; fields the format does not mention keep
   their defaults *)
Theorem strptime_fields fmt items s r :
  parse_format fmt = Some items -> strptime fmt s = Ok r ->
  exists f, r = mk_datetime (fY f) (fm f) (fd f) (fH f) (fM f) (fS f) 0 /\
            valid_date (fY f) (fm f) (fd f) = true /\ valid_time (fH f) (fM f) (fS f) = true /\
            forall d, ~ In (FDir d) items -> get_field d f = get_field d fields0.
Proof.
  unfold strptime. intros ->.
  destruct (match_format items fields0 s) as [[f [|c rest]]|] eqn:E; try discriminate.
  destruct (valid_date _ _ _) eqn:E1; [|discriminate]. destruct (valid_time _ _ _) eqn:E2; [|discriminate].
  intros [= <-]. exists f. repeat split; auto.
  intros d Hd. exact (match_format_untouched d items Hd _ _ _ _ E).
Qed.

Corollary strptime_date_sound s r :
  strptime "%Y-%m-%d" s = Ok r -> exists y m d, r = mk_datetime y m d 0 0 0 0 /\ valid_date y m d = true.
Proof.
  intros H. destruct (strptime_fields _ _ s r parse_date_format H) as (f & -> & Hd & _ & Hu).
  exists (fY f), (fm f), (fd f). split; [|exact Hd].
  assert (H0 : fH f = 0 /\ fM f = 0 /\ fS f = 0)
    by (repeat split; [apply (Hu DH)|apply (Hu DM)|apply (Hu DS)]; intros [E|[E|[E|[E|[E|[]]]]]]; discriminate E).
  destruct H0 as (-> & -> & ->). reflexivity.
Qed.

Corollary strptime_time_sound s r :
  strptime "%H:%M:%S" s = Ok r -> exists h mi sec, r = mk_datetime 1900 1 1 h mi sec 0 /\ valid_time h mi sec = true.
Proof.
  intros H. destruct (strptime_fields _ _ s r parse_time_format H) as (f & -> & _ & Ht & Hu).
  exists (fH f), (fM f), (fS f). split; [|exact Ht].
  assert (H0 : fY f = 1900 /\ fm f = 1 /\ fd f = 1)
    by (repeat split; [apply (Hu DY)|apply (Hu Dm)|apply (Hu Dd)]; intros [E|[E|[E|[E|[E|[]]]]]]; discriminate E).
  destruct H0 as (-> & -> & ->). reflexivity.
Qed.

Corollary strptime_datetime_sound s r :
  strptime "%Y-%m-%dT%H:%M:%S" s = Ok r ->
  exists y m d h mi sec, r = mk_datetime y m d h mi sec 0 /\ valid_date y m d = true /\ valid_time h mi sec = true.
Proof.
  intros H. destruct (strptime_fields _ _ s r parse_datetime_format H) as (f & -> & Hd & Ht & _).
  exists (fY f), (fm f), (fd f), (fH f), (fM f), (fS f). auto.
Qed.

Fixpoint no_T (s : string) : Prop :=
  match s with EmptyString => True | String c r => Ascii.eqb c "T"%char = false /\ no_T r end.
Lemma no_T_app a b : no_T a -> no_T b -> no_T (a ++ b).
Proof. induction a as [|c a IH]; [tauto|]. intros [H1 H2] Hb. split; [exact H1|now apply IH]. Qed.

Lemma split_T_no_T a : no_T a -> forall cur, split_T a cur = [(cur ++ a)%string].
Proof.
  induction a as [|c a IH]; cbn [split_T no_T]; intros H cur; [now rewrite append_empty_r|].
  destruct H as [Hc Ha]. rewrite Hc, (IH Ha). now rewrite append_assoc.
Qed.
Lemma split_T_app a b : no_T a -> forall cur, split_T (a ++ String "T" b) cur = (cur ++ a)%string :: split_T b "".
Proof.
  induction a as [|c a IH]; cbn [split_T no_T append]; intros H cur.
  - now rewrite append_empty_r.
  - destruct H as [Hc Ha]. rewrite Hc, (IH Ha). now rewrite append_assoc.
Qed.

Lemma pad2_no_T v : 0 <= v <= 99 -> no_T (pad2 v).
Proof.
  repeat split; apply ascii_of_digit_not_T.
  - split; [apply Z.div_pos; lia|]. assert (v / 10 < 10) by (apply Z.div_lt_upper_bound; lia). lia.
  - pose proof (Z.mod_pos_bound v 10 ltac:(lia)). lia.
Qed.
Lemma pad4_no_T v : 0 <= v <= 9999 -> no_T (pad4 v).
Proof.
  repeat split; apply ascii_of_digit_not_T.
  - split; [apply Z.div_pos; lia|]. assert (v / 1000 < 10) by (apply Z.div_lt_upper_bound; lia). lia.
  - pose proof (Z.mod_pos_bound (v / 100) 10 ltac:(lia)). lia.
  - pose proof (Z.mod_pos_bound (v / 10) 10 ltac:(lia)). lia.
  - pose proof (Z.mod_pos_bound v 10 ltac:(lia)). lia.
Qed.
Lemma pad6_no_T v : 0 <= v <= 999999 -> no_T (pad6 v).
Proof.
  intros H. repeat apply no_T_app; apply pad2_no_T.
  - split; [apply Z.div_pos; lia|]. assert (v / 10000 < 100) by (apply Z.div_lt_upper_bound; lia). lia.
  - pose proof (Z.mod_pos_bound (v / 100) 100 ltac:(lia)). lia.
  - pose proof (Z.mod_pos_bound v 100 ltac:(lia)). lia.
Qed.
Lemma iso_date_no_T y m d : valid_date y m d = true -> no_T (iso_date y m d).
Proof.
  intros Hv. destruct (valid_date_range _ _ _ Hv) as (Hy & Hm & Hd).
  repeat apply no_T_app; try (cbn; tauto); [apply pad4_no_T|apply pad2_no_T|apply pad2_no_T]; lia.
Qed.
Lemma iso_time_no_T h mi s us : valid_time h mi s = true -> 0 <= us <= 999999 -> no_T (iso_time h mi s us).
Proof.
  intros Hv Hus. destruct (valid_time_range _ _ _ Hv) as (Hh & Hmi & Hs).
  repeat apply no_T_app; try (cbn; tauto); try (apply pad2_no_T; lia).
  destruct (us =? 0); [exact I|]. apply no_T_app; [cbn; tauto|apply pad6_no_T; lia].
Qed.

(* isoformat() of a well-formed datetime has its one "T" between the date and the time *)
Theorem temporal_output_date O y m d h mi s us :
  valid_date y m d = true ->
  temporal_coerce_output (Some 0%nat) O (mk_datetime y m d h mi s us) = Ok (PStr (iso_date y m d)).
Proof.
  intros Hd. unfold temporal_coerce_output, mk_datetime. cbn [isoformat].
  change (iso_date y m d ++ "T" ++ iso_time h mi s us)%string with (iso_date y m d ++ String "T" (iso_time h mi s us))%string.
  now rewrite (split_T_app _ _ (iso_date_no_T _ _ _ Hd)).
Qed.
Theorem temporal_output_time O y m d h mi s us :
  valid_date y m d = true -> valid_time h mi s = true -> 0 <= us <= 999999 ->
  temporal_coerce_output (Some 1%nat) O (mk_datetime y m d h mi s us) = Ok (PStr (iso_time h mi s us)).
Proof.
  intros Hd Ht Hus. unfold temporal_coerce_output, mk_datetime. cbn [isoformat].
  change (iso_date y m d ++ "T" ++ iso_time h mi s us)%string with (iso_date y m d ++ String "T" (iso_time h mi s us))%string.
  now rewrite (split_T_app _ _ (iso_date_no_T _ _ _ Hd)), (split_T_no_T _ (iso_time_no_T _ _ _ _ Ht Hus)).
Qed.
Theorem temporal_output_datetime O y m d h mi s us :
  temporal_coerce_output None O (mk_datetime y m d h mi s us) = Ok (PStr (iso_date y m d ++ "T" ++ iso_time h mi s us)).
Proof. reflexivity. Qed.

Lemma temporal_input_of_string fmt O s : temporal_coerce_input fmt O (PStr s) =
  match strptime fmt s with Ok r => Ok r | Raise OutOfFuel => Raise OutOfFuel | Raise _ => Raise TypeError end.
Proof. unfold temporal_coerce_input. cbn. reflexivity. Qed.

Lemma strptime_no_fuel fmt s : strptime fmt s <> Raise OutOfFuel.
Proof.
  unfold strptime. destruct (parse_format fmt); [|discriminate].
  destruct (match_format l fields0 s) as [[f [|c r]]|]; try discriminate.
  destruct (valid_date _ _ _ && valid_time _ _ _); discriminate.
Qed.

Theorem temporal_input_only_strings fmt O v r : temporal_coerce_input fmt O v = Ok r -> exists s, v = PStr s /\ strptime fmt s = Ok r.
Proof.
  unfold temporal_coerce_input.
  destruct v; try (discriminate); try (destruct k; discriminate). cbn. intros H. exists s. split; [reflexivity|].
  destruct (strptime fmt s) as [x|[]]; try discriminate H; exact H.
Qed.

(* literal = variable: a string literal is coerced exactly like the same string in a variable;
   any other literal kind is not a value of the scalar *)
Theorem temporal_literal_eq_variable fmt O s :
  temporal_parse_literal fmt O (PAst KStringValue (PStr s)) =
  match temporal_coerce_input fmt O (PStr s) with Ok r => Ok r | Raise OutOfFuel => Raise OutOfFuel | Raise _ => Ok PUndef end.
Proof.
  rewrite temporal_input_of_string. cbn.
  destruct (strptime fmt s) as [r|[]]; reflexivity.
Qed.
