(* The chain of literal coercers the implementation builds (wrappers folded around a leaf,
   the flag "non-null position" threaded through them) IS the coercion of a literal by
   recursion on the declared type (Model/SpecLiteral.v), for every schema, type, literal,
   variable map and fuel. *)
From Coq Require Import List Bool.
From TV Require Import Py.Prelude Model.Schema Model.ImplInput Model.SpecLiteral Model.SpecArgs
     Proofs.ListFacts Proofs.InputRefine Proofs.ArgsRefine.
Import ListNotations.

Section Refine.
Variable sch : schema.

Lemma var_value_eq vs nn x :
  (if is_undef (var_lookup vs x) || (is_none (var_lookup vs x) && nn) then Ok PUndef else Ok (var_lookup vs x))
  = @Ok pyval (var_value vs nn x).
Proof.
  unfold var_value, var_lookup. destruct (dict_get x vs) as [v|]; [|reflexivity].
  destruct (is_undef v); [reflexivity|]. destruct (is_none v && nn); reflexivity.
Qed.

Lemma spec_literal_nonnull fuel t vs nn l :
  spec_literal sch fuel (TNonNull t) vs nn l =
  match l with LNull _ => Ok PUndef | _ => spec_literal sch fuel t vs true l end.
Proof. destruct fuel; reflexivity. Qed.

Lemma spec_literal_list fuel t vs nn l :
  spec_literal sch fuel (TList t) vs nn l =
  match l with
  | LNull _ => Ok PNone
  | LVar _ x => Ok (var_value vs nn x)
  | LList _ items =>
      bind (map_res (fun it => if is_missing_variable it vs
                               then (if is_non_null t then Ok PUndef else Ok PNone)
                               else spec_literal sch fuel t vs false it) items)
           (fun rs => if all_defined rs then Ok (PList rs) else Ok PUndef)
  | _ => bind (spec_literal sch fuel t vs false l) (fun v => if is_undef v then Ok PUndef else Ok (PList [v]))
  end.
Proof. destruct fuel; reflexivity. Qed.

Lemma get_literal_coercer_list fuel t :
  get_literal_coercer sch fuel (TList t) = lit_list_coercer (is_non_null t) (get_literal_coercer sch fuel t).
Proof. unfold get_literal_coercer. destruct t as [n|t|t]; cbn [peel]; try destruct (peel t); reflexivity. Qed.

Lemma get_literal_coercer_nonnull fuel t :
  get_literal_coercer sch fuel (TNonNull t) = lit_non_null_coercer (get_literal_coercer sch fuel t).
Proof. unfold get_literal_coercer. cbn [peel]. now destruct (peel t). Qed.

Lemma obj_merge_lit_finish rs : forall acc,
  obj_merge_lit rs acc =
  if existsb field_bad rs then PUndef
  else PDict (acc ++ flat_map (fun r => match snd r with FVal v => [(fst r, v)] | _ => [] end) rs).
Proof.
  induction rs as [|[n o] rs IH]; intros acc; cbn [obj_merge_lit existsb flat_map snd fst].
  - now rewrite app_nil_r.
  - unfold field_bad at 1. destruct o as [| |v]; cbn [snd orb app].
    + apply IH.
    + reflexivity.
    + destruct (is_undef v); [reflexivity|].
      rewrite IH. now rewrite <- app_assoc.
Qed.

Theorem literal_coercer_refines_spec : forall fuel t vs nn l,
  get_literal_coercer sch fuel t vs nn l = spec_literal sch fuel t vs nn l.
Proof.
  (* at a leaf a variable or null is answered by nv_wrap on both sides (var_value_eq) and any other kind goes to
     the leaf's coercer; object fields and list items agree by the induction hypothesis under map_res_ext; Non-
     Null only sets the flag *)
  apply (fuel_ty_ind (fun fuel t => forall vs nn l,
           get_literal_coercer sch fuel t vs nn l = spec_literal sch fuel t vs nn l)).
  - reflexivity.
  - intros fuel n IH vs nn l. change (literal_leaf sch (S fuel) n vs nn l = spec_literal sch (S fuel) (TNamed n) vs nn l).
    cbn [literal_leaf spec_literal].
    destruct (find_type sch n) as [[ |values|fields|ifs fs|fs|ms]|]; try reflexivity.
    + destruct (scalars sch n) as [ops|]; [|reflexivity].
      unfold lit_scalar_coercer, nv_wrap.
      destruct l; try (now rewrite var_value_eq); try reflexivity;
        (destruct (s_literal ops _) as [r|[]]; reflexivity).
    + unfold lit_enum_coercer, nv_wrap. destruct l; try (now rewrite var_value_eq); reflexivity.
    + unfold nv_wrap.
      destruct l as [lo x|lo v|lo v|lo s|lo b|lo|lo s|lo items|lo fnodes];
        try (now rewrite var_value_eq); try reflexivity.
      rewrite (map_res_ext _ (fun f => bind (spec_obj_field (fun ft x => spec_literal sch fuel ft vs false x) vs fnodes f)
                                            (fun o => Ok (in_name f, o))) fields).
      * destruct (map_res _ fields) as [rs|e]; cbn [bind]; [|reflexivity].
        now rewrite obj_merge_lit_finish.
      * intros f _. unfold spec_obj_field.
        pose proof (IH (in_type f) vs false) as Hf. unfold get_literal_coercer in Hf.
        destruct (peel (in_type f)) as [ws leafn].
        destruct (lit_obj_get (in_name f) fnodes) as [node|]; [destruct (is_missing_variable node vs)|];
          try (destruct (in_default f) as [d|]; [|destruct (is_non_null (in_type f)); reflexivity]);
          rewrite Hf; destruct (spec_literal sch fuel (in_type f) vs false _); reflexivity.
  - intros fuel t IH vs nn l. rewrite get_literal_coercer_list, spec_literal_list.
    unfold lit_list_coercer, nv_wrap.
    destruct l; try (rewrite IH; reflexivity).
    + now rewrite var_value_eq.
    + reflexivity.
    + erewrite map_res_ext; [reflexivity|]. intros it _. cbv beta.
      destruct (is_missing_variable it vs); [reflexivity|apply IH].
  - intros fuel t IH vs nn l. rewrite get_literal_coercer_nonnull, spec_literal_nonnull.
    destruct l; try reflexivity; apply IH.
Qed.

End Refine.

(* CoerceArgumentValues with the specification's literal coercion *)
Section Args.
Variable sch : schema.

Definition spec_coerce_literal (fuel : nat) (vs : vars) (t : ty) (node : lit) : res (option pyval) :=
  bind (spec_literal sch fuel t vs false node) (fun v => if is_undef v then Ok None else Ok (Some v)).

Lemma impl_literal_is_spec fuel vs t l : spec_coerce_literal fuel vs t l = impl_coerce_literal sch fuel vs t l.
Proof. unfold impl_coerce_literal. now rewrite literal_coercer_refines_spec. Qed.

(* the implementation model gives the outcome of CoerceArgumentValues in which literals are coerced by
   recursion on the declared type *)
Theorem coerce_arguments_refines_spec fuel ads floc anodes vs :
  map_matches (coerce_arguments_aux sch fuel ads floc anodes vs)
              (spec_arguments (spec_coerce_literal fuel vs) ads anodes vs).
Proof. apply coerce_arguments_refines, impl_literal_is_spec. Qed.
End Args.
