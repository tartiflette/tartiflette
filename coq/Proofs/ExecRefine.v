(* C01: whenever the specification's execution algorithm (Model/SpecExec.v: CollectFields,
   ExecuteSelectionSet, ExecuteField, CompleteValue with the error rule of 6.4.4) yields a result,
   the implementation model (Model/ImplExec.v: accumulator-passing collection, state-passing
   execute_fields, the output coercer chain, raise / catch / MultipleException) yields the same
   data -- for every schema, document, variables, user code and every sibling configuration.
   This is the simulation of Proofs/ExecOrigins.v (data and error accounting, by fuel induction through
   fields in both passes, lists, non-null, abstract types, field error handling) with the accounting
   dropped. *)
From Coq Require Import List String.
From TV Require Import Py.Prelude Model.Schema Model.ImplInput Model.ImplExec Model.SpecExec
     Proofs.ExecOrigins.

Section Refine.
Variable sch : schema.
Variable doc : document.
Variable vs : vars.
Variable U : usercode.
Variable cfg : config.

(* An implementation computation refines a specification result (data only) when, from EVERY state, it
   returns the specification's value (SVal), returns no value for a field the type does not define (None),
   raises (SFail); nothing is claimed when the specification itself has no result (SCrash: out of fuel /
   missing fragment). *)
Definition Rf (m : M (option pyval)) (r : option sres) : Prop :=
  forall s, match r with
            | None => fst (m s) = OVal None
            | Some (SVal v _) => fst (m s) = OVal (Some v)
            | Some (SFail _) => exists l, fst (m s) = OExc l
            | Some SCrash => True
            end.

(* ExecuteSelectionSet with every field executed, from the data refinement of the fields alone *)
Lemma exec_fields_conc_refines (rf : string -> list fnode -> M (option pyval)) sf :
  (forall k ns, Rf (rf k ns) (sf k ns)) -> forall fs s rkv ro,
  spec_fields sf fs = (rkv, ro, false) ->
  match rkv with
  | Some kv => fst (exec_fields_conc rf fs s) = OVal kv
  | None => exists l, fst (exec_fields_conc rf fs s) = OExc l
  end.
Proof.
  intros H. induction fs as [|[k nodes] rest IH]; intros s rkv ro; cbn [spec_fields exec_fields_conc].
  - intros E. inversion E. reflexivity.
  - destruct (spec_fields sf rest) as [[rkv0 ro0] rc0].
    destruct (rf k nodes s) as [r s1] eqn:E1. pose proof (H k nodes s) as Hk. rewrite E1 in Hk. cbn [fst] in Hk.
    destruct (exec_fields_conc rf rest s1) as [rs s2] eqn:E2.
    destruct (sf k nodes) as [[v o|o|]|]; intros E; inversion E; subst.
    + pose proof (IH s1 _ _ eq_refl) as Hr. rewrite E2 in Hr. cbn [fst] in Hr.
      destruct rkv0 as [kv|]; [subst rs; reflexivity|destruct Hr as [l ->]; eexists; reflexivity].
    + pose proof (IH s1 _ _ eq_refl) as Hr. rewrite E2 in Hr. cbn [fst] in Hr. destruct Hk as [l ->].
      destruct rkv0 as [kv|]; [subst rs; eexists; reflexivity|destruct Hr as [l' ->]; eexists; reflexivity].
    + pose proof (IH s1 _ _ eq_refl) as Hr. rewrite E2 in Hr. cbn [fst] in Hr.
      destruct rkv as [kv|]; [subst rs; reflexivity|destruct Hr as [l ->]; eexists; reflexivity].
Qed.

Lemma acct_Rf full w m r : acct full w m (of_field r) -> Rf m r.
Proof.
  intros H s. destruct r as [[v o|o|]|]; [| |exact I|]; destruct (H s) as (E & _ & P).
  - exact (proj1 P).
  - destruct P as (l & Hl & _). now exists l.
  - exact (proj1 P).
Qed.

(* ExecuteField, at every depth of the response tree *)
Theorem resolve_field_refines fuel otype value opath k ns :
  Rf (resolve_field sch doc vs U cfg fuel otype value opath k ns) (spec_field sch doc vs U fuel otype value opath k ns).
Proof. eapply acct_Rf, (resolve_field_acct sch doc vs U cfg false). discriminate. Qed.

(* ExecuteQuery / ExecuteMutation: whichever sibling strategy is configured, mutations included *)
Theorem execute_operation_refines_spec op root d o :
  spec_execute_operation sch doc vs U op root = Some (d, o) ->
  exists r, execute_operation sch doc vs U cfg op root = OVal r /\ r_data r = d.
Proof.
  intros H. destruct (execute_operation_accounts_incl sch doc vs U cfg op root d o H) as (r & Hr & Hd & _). eauto.
Qed.

End Refine.
