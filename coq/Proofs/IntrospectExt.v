(* C11: what an `extend` definition contributes is reported: after a type extension is merged, `__type(name:)` describes
   the merged definition (`extended`): the extension's members appended (enum values, union members, object interfaces)
   or merged by name (fields, input fields).  The merged definition also carries the directives of both, but a type's own
   directives are not among what `type_info` reports. *)
From Coq Require Import List String.
From TV Require Import Model.Schema Model.SchemaBuild Model.Introspect.

Open Scope list_scope.

Lemma find_upd_tdecl ts n f t :
  find_tdecl ts n = Some t -> td_name (f t) = td_name t -> find_tdecl (upd_tdecl ts n f) n = Some (f t).
Proof.
  induction ts as [|t0 r IH]; intros H Hn; [discriminate|]. cbn [find_tdecl upd_tdecl] in *.
  destruct (String.eqb n (td_name t0)) eqn:E.
  - injection H as ->. cbn [find_tdecl]. rewrite Hn, E. reflexivity.
  - cbn [find_tdecl]. rewrite E. now apply IH.
Qed.

Definition extended (t : tdecl) (d : typedef) (dirs : list string) : tdecl :=
  {| td_name := td_name t; td_def := merge_def (td_def t) d; td_dirs := td_dirs t ++ dirs |}.

Theorem extension_is_reported g n t d dirs :
  find_tdecl (g_types g) n = Some t ->
  introspect_type (apply_ext g (XType n d dirs)) n = Some (type_info (apply_ext g (XType n d dirs)) (extended t d dirs)).
Proof.
  intros H. unfold introspect_type. cbn [apply_ext g_types]. rewrite (find_upd_tdecl _ _ _ _ H); reflexivity.
Qed.

(* in particular the values an `extend enum` adds are reported after the declared ones *)
Theorem extended_enum_values_reported g n t vs xs dirs :
  find_tdecl (g_types g) n = Some t -> td_def t = DEnum vs ->
  exists ti, introspect_type (apply_ext g (XType n (DEnum xs) dirs)) n = Some ti /\
             option_map (map fst) (it_enum ti) = Some (vs ++ xs).
Proof.
  intros H Hd. eexists. split; [apply (extension_is_reported g n t (DEnum xs) dirs H)|].
  unfold type_info, extended. cbn [td_def td_name]. rewrite Hd. cbn [merge_def it_enum option_map].
  now rewrite map_map, map_id.
Qed.

Theorem extended_union_members_reported g n t ms xs dirs :
  find_tdecl (g_types g) n = Some t -> td_def t = DUnion ms ->
  exists ti, introspect_type (apply_ext g (XType n (DUnion xs) dirs)) n = Some ti /\ it_possible ti = Some (ms ++ xs).
Proof.
  intros H Hd. eexists. split; [apply (extension_is_reported g n t (DUnion xs) dirs H)|].
  unfold extended. rewrite Hd. reflexivity.
Qed.

Theorem extended_object_interfaces_reported g n t ifs fs xifs xfs dirs :
  find_tdecl (g_types g) n = Some t -> td_def t = DObject ifs fs ->
  exists ti, introspect_type (apply_ext g (XType n (DObject xifs xfs) dirs)) n = Some ti /\ it_interfaces ti = Some (ifs ++ xifs).
Proof.
  intros H Hd. eexists. split; [apply (extension_is_reported g n t (DObject xifs xfs) dirs H)|].
  unfold extended. rewrite Hd. reflexivity.
Qed.
