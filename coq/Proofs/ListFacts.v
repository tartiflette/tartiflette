(* Facts about lists that several proof files share: when an appended / flat-mapped / folded list of reported
   errors is empty; map_res and Forall2; association lists, also those of the validation context (upd_assoc);
   what a loop does to a projection of its state. *)
From Coq Require Import List String Bool.
From TV Require Import Py.Prelude Model.Schema Model.ImplInput Model.ImplValidate.
Import ListNotations.

Lemma mem_str_iff x l : mem_str x l = true <-> In x l.
Proof.
  induction l as [|y l IH]; cbn [mem_str].
  - split; [discriminate|intros []].
  - rewrite orb_true_iff, IH, String.eqb_eq.
    split; intros [H|H]; [left; now symmetry|now right|left; now symmetry|now right].
Qed.

Lemma app_nil_iff {A} (a b : list A) : a ++ b = [] <-> a = [] /\ b = [].
Proof. split; [apply app_eq_nil|intros [-> ->]; reflexivity]. Qed.

Lemma some_nil_iff {A} (l : list A) : Some l = Some [] <-> l = [].
Proof. split; [now intros [= ->]|now intros ->]. Qed.

Lemma app_nonnil_l {A} (a b : list A) : a <> [] -> a ++ b <> [].
Proof. rewrite app_nil_iff. tauto. Qed.
Lemma app_nonnil_r {A} (a b : list A) : b <> [] -> a ++ b <> [].
Proof. rewrite app_nil_iff. tauto. Qed.

Lemma flat_map_nil_iff {A B} (f : A -> list B) l : flat_map f l = [] <-> forall x, In x l -> f x = [].
Proof.
  induction l as [|a l IH]; cbn [flat_map]; [split; [intros _ ? []|reflexivity]|].
  rewrite app_nil_iff, IH. split.
  - intros [Ha Hl] x [<-|Hx]; [exact Ha|now apply Hl].
  - split; [apply H; now left|intros x Hx; apply H; now right].
Qed.

Lemma flat_map_nonnil {A B} (f : A -> list B) l x : In x l -> f x <> [] -> flat_map f l <> [].
Proof. intros Hx Hf E. rewrite flat_map_nil_iff in E. exact (Hf (E x Hx)). Qed.

Lemma flat_map_flat_map {A B C} (f : B -> list C) (g : A -> list B) l :
  flat_map f (flat_map g l) = flat_map (fun x => flat_map f (g x)) l.
Proof. induction l as [|a l IH]; [reflexivity|]. cbn [flat_map]. now rewrite flat_map_app, IH. Qed.

Lemma forallb_false_witness {A} (p : A -> bool) l : forallb p l = false -> exists x, In x l /\ p x = false.
Proof.
  induction l as [|a l IH]; cbn; [discriminate|]. destruct (p a) eqn:E.
  - intros H. destruct (IH H) as (x & Hx & Hp). exists x. split; [now right|exact Hp].
  - exists a. split; [now left|exact E].
Qed.

(* The shape shared by the checkers of a schema: the checker is a flat_map of per-item error lists,
   the rule it enforces an existsb over the same items. *)
Lemma existsb_flagged {A B} (p : A -> bool) (f : A -> list B) l :
  (forall x, In x l -> p x = true -> f x <> []) -> existsb p l = true -> flat_map f l <> [].
Proof. intros H E. apply existsb_exists in E. destruct E as (x & Hx & Hp). exact (flat_map_nonnil f l x Hx (H x Hx Hp)). Qed.

Lemma unchecked_flagged {A B} (ok : A -> bool) (tag : B) l :
  existsb (fun a => negb (ok a)) l = true -> flat_map (fun a => if ok a then [] else [tag]) l <> [].
Proof. apply existsb_flagged. intros a _ H. apply negb_true_iff in H. now rewrite H. Qed.

Lemma flags_clean {A B} (bad : A -> bool) (tag : B) l :
  flat_map (fun x => if bad x then [tag] else []) l = [] -> forallb (fun x => negb (bad x)) l = true.
Proof. induction l as [|a l IH]; cbn; [reflexivity|]. destruct (bad a); [discriminate|exact IH]. Qed.

Lemma fold_left_some_app {A B} (F : option (list B) -> A -> option (list B)) (f : A -> list B) l :
  (forall e x, F (Some e) x = Some (e ++ f x)) -> forall acc, fold_left F l (Some acc) = Some (acc ++ flat_map f l).
Proof.
  intros H. induction l as [|x l IH]; intros acc; cbn [fold_left flat_map]; [now rewrite app_nil_r|].
  rewrite H. now rewrite app_assoc.
Qed.

Lemma fold_left_absorbing {A S} (F : S -> A -> S) (bad : S -> Prop) l x :
  (forall s y, bad s -> bad (F s y)) -> (forall s, bad (F s x)) -> In x l -> forall s, bad (fold_left F l s).
Proof.
  intros Hm Hx. assert (Hk : forall l s, bad s -> bad (fold_left F l s)).
  { clear l. induction l as [|y l IH]; intros s Hs; [exact Hs|]. apply IH, Hm, Hs. }
  induction l as [|y l IH]; intros Hin s; [destruct Hin|]. cbn.
  destruct Hin as [<-|Hin]; [apply Hk, Hx|now apply IH].
Qed.

Lemma map_res_ext {A B} (f g : A -> res B) l :
  (forall x, In x l -> f x = g x) -> map_res f l = map_res g l.
Proof.
  induction l as [|x xs IH]; intros H; cbn [map_res]; [reflexivity|].
  rewrite H by (left; reflexivity). rewrite IH; [reflexivity|].
  intros y Hy. apply H. now right.
Qed.

Lemma map_res_map {A B C} (f : A -> res B) (g : B -> C) l :
  map_res (fun x => bind (f x) (fun y => Ok (g y))) l = bind (map_res f l) (fun ys => Ok (map g ys)).
Proof.
  induction l as [|x l IH]; cbn [map_res bind map]; [reflexivity|].
  destruct (f x) as [y|]; [|reflexivity]. rewrite IH. now destruct (map_res f l).
Qed.

Lemma map_res_Forall2 {A B} (f : A -> res B) : forall l rs,
  map_res f l = Ok rs -> Forall2 (fun x y => f x = Ok y) l rs.
Proof.
  induction l as [|x l IH]; intros rs H; cbn [map_res] in H.
  - injection H as <-. constructor.
  - destruct (f x) as [y|] eqn:Hx; [|discriminate].
    destruct (map_res f l) as [ys|]; [|discriminate]. injection H as <-.
    constructor; [exact Hx|now apply IH].
Qed.

Lemma forall2_impl {A B} (R S : A -> B -> Prop) xs ys :
  (forall x y, R x y -> S x y) -> Forall2 R xs ys -> Forall2 S xs ys.
Proof. induction 2; auto. Qed.

Lemma forall2_in_l {A B} (R : A -> B -> Prop) xs ys x :
  Forall2 R xs ys -> In x xs -> exists y, In y ys /\ R x y.
Proof.
  induction 1 as [|a b xs ys Hab H IH]; intros Hin; [contradiction|].
  destruct Hin as [->|Hin]; [exists b; split; [now left|exact Hab]|].
  destruct (IH Hin) as [y [Hy Hr]]. exists y. split; [now right|exact Hr].
Qed.

Lemma forall2_in_r {A B} (R : A -> B -> Prop) xs ys y :
  Forall2 R xs ys -> In y ys -> exists x, In x xs /\ R x y.
Proof.
  induction 1 as [|a b xs ys Hab H IH]; intros Hin; [contradiction|].
  destruct Hin as [->|Hin]; [exists a; split; [now left|exact Hab]|].
  destruct (IH Hin) as [x [Hx Hr]]. exists x. split; [now right|exact Hr].
Qed.

Lemma exists_cons {A} (x : A) l (Q : A -> Prop) :
  (exists a, In a (x :: l) /\ Q a) <-> Q x \/ exists a, In a l /\ Q a.
Proof.
  split; [intros (a & [<-|Hin] & HQ); eauto|intros [HQ|(a & Hin & HQ)]; [exists x|exists a]; cbn; auto].
Qed.

Lemma dict_get_in k v kv : In (k, v) kv -> exists v', dict_get k kv = Some v'.
Proof.
  induction kv as [|[k' v0] kv IH]; intros Hin; [contradiction|]. cbn [dict_get].
  destruct (String.eqb k k') eqn:E; [eauto|].
  destruct Hin as [Heq|Hin]; [|now apply IH]. injection Heq as -> ->. now rewrite String.eqb_refl in E.
Qed.

Lemma filter_nil_iff {A} (p : A -> bool) l : filter p l = [] <-> forall x, In x l -> p x = false.
Proof.
  induction l as [|a l IH]; cbn [filter In]; [split; [intros _ x []|reflexivity]|].
  destruct (p a) eqn:E.
  - split; [discriminate|]. intros H. rewrite (H a (or_introl eq_refl)) in E. discriminate.
  - rewrite IH. split; [intros H x [<-|Hx]; auto|intros H x Hx; apply H; now right].
Qed.

Lemma fold_left_ext {A B} (f g : A -> B -> A) l : (forall a x, f a x = g a x) -> forall a, fold_left f l a = fold_left g l a.
Proof. intros H. induction l as [|x l IH]; intros a; [reflexivity|]. cbn. rewrite H. apply IH. Qed.

Lemma fold_left_inv_if {A B C} (P : A -> Prop) (g : A -> C) (f : A -> B -> A) l :
  (forall a x, In x l -> P a -> g (f a x) = g a /\ P (f a x)) ->
  forall a, P a -> g (fold_left f l a) = g a /\ P (fold_left f l a).
Proof.
  induction l as [|x l IH]; intros H a Pa; [split; [reflexivity|exact Pa]|].
  destruct (H a x (or_introl eq_refl) Pa) as [E Px]. rewrite <- E. apply IH; [|exact Px].
  intros a' y Hy. apply H. now right.
Qed.

Lemma fold_left_inv {A B C} (g : A -> C) (f : A -> B -> A) l :
  (forall a x, In x l -> g (f a x) = g a) -> forall a, g (fold_left f l a) = g a.
Proof.
  intros H a. exact (proj1 (fold_left_inv_if (fun _ => True) g f l (fun a x Hx _ => conj (H a x Hx) I) a I)).
Qed.

Lemma fold_left_appends {A B C} (g : A -> list C) (f : A -> B -> A) (out : B -> list C) l :
  (forall a x, In x l -> g (f a x) = g a ++ out x) -> forall a, g (fold_left f l a) = g a ++ flat_map out l.
Proof.
  induction l as [|x l IH]; intros H a; cbn [fold_left flat_map]; [now rewrite app_nil_r|].
  rewrite IH, H, app_assoc; [reflexivity|now left|]. intros a' y Hy. apply H. now right.
Qed.

Lemma fold_left_folds {A B C E} (g : A -> C) (f : A -> B -> A) (add : C -> E -> C) (out : B -> list E) l :
  (forall a x, g (f a x) = fold_left add (out x) (g a)) -> forall a, g (fold_left f l a) = fold_left add (flat_map out l) (g a).
Proof.
  intros H. induction l as [|x l IH]; intros a; cbn [fold_left flat_map]; [reflexivity|].
  now rewrite IH, H, fold_left_app.
Qed.

Lemma NoDup_snoc {A} (l : list A) x : NoDup l -> ~ In x l -> NoDup (l ++ [x]).
Proof.
  intros Hn Hx. induction Hn as [|y l Hy Hn IH].
  - constructor; [intros []|constructor].
  - constructor.
    + intros Hi. apply in_app_or in Hi. destruct Hi as [Hi|[<-|[]]]; [contradiction|apply Hx; now left].
    + apply IH. intros Hi. apply Hx. now right.
Qed.

Lemma upd_assoc_not_nil {K A} eqb (k : K) (d : A) f l : upd_assoc eqb k d f l <> [].
Proof. destruct l as [|[k' v] r]; cbn; [discriminate|]. destruct (eqb k k'); discriminate. Qed.

Lemma group_by_name_nil {A} (l : list (string * A)) acc : group_by_name l acc = [] -> l = [] /\ acc = [].
Proof.
  revert acc. induction l as [|[k v] r IH]; intros acc; [tauto|].
  intros H. apply IH in H. destruct H as [_ H]. exfalso. exact (upd_assoc_not_nil _ _ _ _ _ H).
Qed.

Lemma group_vars_nil l acc : group_vars l acc = [] -> l = [] /\ acc = [].
Proof.
  revert acc. induction l as [|[k v] r IH]; intros acc; [tauto|].
  intros H. apply IH in H. destruct H as [_ H]. exfalso. exact (upd_assoc_not_nil _ _ _ _ _ H).
Qed.

Section UpdString.
Context {A : Type}.
Variable d : A.
Lemma upd_assoc_ext (f g : A -> A) k l : (forall x, f x = g x) -> upd_assoc String.eqb k d f l = upd_assoc String.eqb k d g l.
Proof.
  intros H. induction l as [|[k' v] r IH]; cbn [upd_assoc]; [now rewrite H|].
  destruct (String.eqb k k'); [now rewrite H|now rewrite IH].
Qed.
Lemma upd_assoc_comp (f g : A -> A) k l :
  upd_assoc String.eqb k d g (upd_assoc String.eqb k d f l) = upd_assoc String.eqb k d (fun x => g (f x)) l.
Proof.
  induction l as [|[k' v] r IH]; cbn [upd_assoc].
  - now rewrite String.eqb_refl.
  - destruct (String.eqb k k') eqn:E; cbn [upd_assoc]; rewrite E; [reflexivity|now rewrite IH].
Qed.
Lemma upd_assoc_id k l : assoc k l <> None -> upd_assoc String.eqb k d (fun x => x) l = l.
Proof.
  induction l as [|[k' v] r IH]; cbn [assoc upd_assoc]; intros H; [now elim H|].
  destruct (String.eqb k k'); [reflexivity|now rewrite IH].
Qed.
Lemma upd_assoc_present (f : A -> A) k k' l : assoc k' l <> None \/ k' = k -> assoc k' (upd_assoc String.eqb k d f l) <> None.
Proof.
  induction l as [|[k0 v] r IH]; cbn [assoc upd_assoc]; intros H.
  - destruct H as [H| ->]; [now elim H|]. rewrite String.eqb_refl. discriminate.
  - destruct (String.eqb k k0) eqn:E; cbn [assoc].
    + destruct (String.eqb k' k0) eqn:E'; [discriminate|]. destruct H as [H| ->]; [exact H|]. congruence.
    + destruct (String.eqb k' k0); [discriminate|]. apply IH. exact H.
Qed.
End UpdString.

Lemma find_field_app fs gs n :
  find_field (fs ++ gs) n = match find_field fs n with Some f => Some f | None => find_field gs n end.
Proof. induction fs as [|f r IH]; cbn [app find_field]; [reflexivity|]. destruct (String.eqb n (fd_name f)); [reflexivity|exact IH]. Qed.
