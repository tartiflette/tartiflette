(* C18: where the `locations` of an error entry come from.
   For an arbitrary predicate P on source locations (think: "a positive line / column pair lying
   inside the request text"): when every location the PARSER attached to the nodes of the document
   satisfies P -- field nodes, the outermost value node of every argument, variable definitions --
   then every location of every entry of `errors` satisfies P.  The executor only ever copies
   locations out of the document: located_error binds the field nodes' locations, argument
   coercion reports the field's or the argument value's location, variable coercion the variable
   definition's.  Which locations the parser attaches is outside the model (stand-in). *)
From Coq Require Import List String Bool.
From TV Require Import Py.Prelude Model.Schema Model.ImplInput Model.ImplExec Model.Envelope Proofs.ArgsRefine
     Proofs.ExecShape Proofs.ExecEffects.
Import ListNotations.

Open Scope list_scope.

Section Locs.
Variable P : loc -> Prop.

Definition arg_good (a : argument) : Prop := P (lit_loc (a_value a)).

Fixpoint sel_good (s : selection) : Prop :=
  match s with
  | SField l _ _ args _ sub =>
      P l /\ Forall arg_good args /\
      (fix all (l : list selection) : Prop :=
         match l with [] => True | x :: r => sel_good x /\ all r end) sub
  | SSpread _ _ _ => True
  | SInline _ _ _ sub =>
      (fix all (l : list selection) : Prop :=
         match l with [] => True | x :: r => sel_good x /\ all r end) sub
  end.
Fixpoint sels_good (l : list selection) : Prop :=
  match l with [] => True | x :: r => sel_good x /\ sels_good r end.

Definition op_good (op : operation) : Prop :=
  Forall (fun vd => P (v_loc vd)) (o_vars op) /\ sels_good (o_sels op).
Definition doc_good (d : document) : Prop :=
  Forall op_good (operations d) /\ Forall (fun fr => sels_good (fr_sels fr)) (fragments d).

Definition node_good (n : fnode) : Prop :=
  P (fn_loc n) /\ Forall arg_good (fn_args n) /\ sels_good (fn_sels n).
Definition fields_good (fs : fields) : Prop := Forall (fun kn => Forall node_good (snd kn)) fs.

Lemma fields_add_good k f fs : node_good f -> fields_good fs -> fields_good (fields_add k f fs).
Proof.
  intros Hf. induction fs as [|[k' l] fs IH]; intros Hfs; cbn [fields_add].
  - constructor; [|constructor]. constructor; [exact Hf|constructor].
  - inversion Hfs as [|x xs Hx Hxs]. destruct (String.eqb k k').
    + constructor; [|exact Hxs]. apply Forall_app. split; [exact Hx|].
      constructor; [exact Hf|constructor].
    + constructor; [exact Hx|]. now apply IH.
Qed.

Definition gerr_good (g : gerr) : Prop := Forall P (g_locs g).
Definition perr_good (e : perr) : Prop :=
  match p_locs e with Some l => Forall P l | None => True end.

Definition grows_good (s s' : st) : Prop :=
  exists new, s_errors s' = s_errors s ++ new /\ Forall gerr_good new.

(* grows_good is `appends gerr_good` *)
Lemma gg_refl s : grows_good s s.
Proof. exact (appends_refl _ s). Qed.
Lemma gg_trans s1 s2 s3 : grows_good s1 s2 -> grows_good s2 s3 -> grows_good s1 s3.
Proof. exact (appends_trans _ s1 s2 s3). Qed.
Lemma gg_add_call c s : grows_good s (add_call c s).
Proof. exact (appends_add_call _ c s). Qed.

Definition okL {A} (m : M A) : Prop :=
  forall s r s', m s = (r, s') ->
    grows_good s s' /\ match r with OExc l => Forall perr_good l | _ => True end.

Lemma finalize_good e : perr_good e -> gerr_good (finalize e).
Proof. unfold perr_good, gerr_good. cbn. destruct (p_locs e); auto. Qed.

Lemma locs_of_good nodes : Forall node_good nodes -> Forall P (locs_of nodes).
Proof.
  intros Hn. apply Forall_map. eapply Forall_impl; [|exact Hn]. intros n (H & _). exact H.
Qed.

Lemma locate_good nodes path e :
  Forall node_good nodes -> perr_good e -> perr_good (locate (locs_of nodes) path e).
Proof. intros Hn. unfold perr_good, locate. destruct (p_locs e); [auto|]. intros _. now apply locs_of_good. Qed.

Lemma raw_good m x : perr_good (raw_err m x).
Proof. exact I. Qed.
Lemma add_errors_good l s : Forall perr_good l -> grows_good s (add_errors l s).
Proof.
  intros H. exists (map finalize l). split; [reflexivity|].
  apply Forall_map. eapply Forall_impl; [|exact H]. apply finalize_good.
Qed.

(* the general invariant of Proofs/ExecEffects.v at grows_good / perr_good, for field nodes that are good,
   unfolds to okL *)
Definition all_good (_ : bool) (_ : list pkey) (l : list perr) : Prop := Forall perr_good l.

Lemma all_good_app b p l l' : all_good b p l -> all_good b p l' -> all_good b p (l ++ l').
Proof. intros H H'. apply Forall_app; auto. Qed.

Lemma all_good_fresh nodes p l : Forall node_good nodes -> fresh_exn nodes l -> all_good false p l.
Proof.
  intros Hn (e & -> & _ & [He|He]); (constructor; [|constructor]); unfold perr_good; rewrite He; [exact I|now apply locs_of_good].
Qed.

Lemma all_good_catch nodes p l : Forall node_good nodes -> all_good false p l ->
  all_good true p (map (locate (locs_of nodes) p) l) /\ forall s, grows_good s (add_errors (map (locate (locs_of nodes) p) l) s).
Proof.
  intros Hn Hl. assert (Hloc : Forall perr_good (map (locate (locs_of nodes) p) l))
    by (apply Forall_map; eapply Forall_impl; [|exact Hl]; intros e; now apply locate_good).
  split; [exact Hloc|]. intros s. now apply add_errors_good.
Qed.

Lemma locations_closed : closed (fun _ => grows_good) all_good (Forall node_good).
Proof.
  constructor; [intros _; exact gg_refl|intros _; exact gg_trans|trivial|intros _; exact gg_add_call|exact all_good_app
               |trivial|trivial|exact all_good_fresh|exact all_good_catch].
Qed.

Section Exec.
Variable sch : schema.
Variable doc : document.
Variable vs : vars.
Variable U : usercode.
Variable cfg : config.
Hypothesis fragments_good : Forall (fun fr => sels_good (fr_sels fr)) (fragments doc).

Lemma find_fragment_good n fr : find_fragment (fragments doc) n = Some fr -> sels_good (fr_sels fr).
Proof.
  revert fragments_good. generalize (fragments doc). intros frs. induction frs as [|f frs IH]; [discriminate|].
  intros Hf. inversion Hf as [|x xs Hx Hxs]; subst. cbn [find_fragment].
  destruct (String.eqb n (fr_name f)); [intros H; inversion H; subst; exact Hx|now apply IH].
Qed.

Lemma collect_fields_good : forall fuel rt sels acc vis r v',
  sels_good sels -> fields_good acc ->
  collect_fields sch doc vs fuel rt sels acc vis = Some (r, v') -> fields_good r.
Proof.
  induction fuel as [|fuel IH]; [discriminate|].
  cbn [collect_fields].
  induction sels as [|sel rest IHs]; intros acc vis r v' Hs Ha.
  - intros H; inversion H; subst; exact Ha.
  - destruct Hs as [Hsel Hrest].
    destruct sel as [l alias name args dirs sub | l name dirs | l tc dirs sub].
    + destruct Hsel as (Hl & Hargs & Hsub).
      destruct (should_include sch vs dirs).
      * apply IHs; [exact Hrest|]. apply fields_add_good; [|exact Ha]. repeat split; assumption.
      * apply IHs; assumption.
    + destruct (mem_str name vis || negb (should_include sch vs dirs)); [apply IHs; assumption|].
      destruct (find_fragment (fragments doc) name) as [fr|] eqn:Ef; [|discriminate].
      destruct (condition_matches sch (Some (fr_type fr)) rt); [|apply IHs; assumption].
      destruct (collect_fields sch doc vs fuel rt (fr_sels fr) acc (name :: vis)) as [[acc1 v1]|] eqn:E1; [|discriminate].
      apply IHs; [exact Hrest|]. eapply IH; [eapply find_fragment_good; eauto|exact Ha|exact E1].
    + destruct (should_include sch vs dirs && condition_matches sch tc rt); [|apply IHs; assumption].
      destruct (collect_fields sch doc vs fuel rt sub acc vis) as [[acc1 v1]|] eqn:E1; [|discriminate].
      apply IHs; [exact Hrest|]. eapply IH; [exact Hsel|exact Ha|exact E1].
Qed.

Lemma collect_subfields_good fuel rt : forall nodes acc vis r,
  Forall node_good nodes -> fields_good acc ->
  collect_subfields sch doc vs fuel rt nodes acc vis = Some r -> fields_good r.
Proof.
  induction nodes as [|n rest IH]; intros acc vis r Hn Ha; cbn [collect_subfields].
  - intros H; inversion H; subst; exact Ha.
  - inversion Hn as [|x xs Hx Hxs]. destruct Hx as (_ & _ & Hsels).
    destruct (fn_sels n) as [|s0 ss]; [now apply IH|].
    destruct (collect_fields sch doc vs fuel rt (s0 :: ss) acc vis) as [[acc1 v1]|] eqn:E1; [|discriminate].
    apply IH; [exact Hxs|]. eapply collect_fields_good; [exact Hsels|exact Ha|exact E1].
Qed.

Lemma exec_fields_conc_okL (rf : string -> list fnode -> M (option pyval)) :
  (forall k ns, Forall node_good ns -> okL (rf k ns)) ->
  forall sub, fields_good sub -> okL (exec_fields_conc rf sub).
Proof.
  intros Hrf sub Hs. apply (eff_conc _ _ _ locations_closed []).
  intros k ns Hin. apply Hrf. unfold fields_good in Hs. rewrite Forall_forall in Hs. exact (Hs _ Hin).
Qed.

Lemma find_arg_in n args a : find_arg n args = Some a -> In a args.
Proof.
  induction args as [|x xs IH]; [discriminate|]. cbn [find_arg].
  destruct (find_arg n xs) as [later|].
  - intros H. right. now apply IH.
  - destruct (String.eqb n (a_name x)); [intros H; inversion H; now left|discriminate].
Qed.

Lemma coerce_arguments_loc fuel ads field_loc anodes vals errs :
  P field_loc -> Forall arg_good anodes ->
  coerce_arguments sch fuel ads field_loc anodes vs = Ok (vals, errs) ->
  Forall (fun ae : aerr => P (snd ae)) errs.
Proof.
  intros Hf Ha. rewrite coerce_arguments_is_aux. intros H. apply Forall_forall. intros [[n k] l] He.
  apply (proj2 (coerce_arguments_aux_In sch _ _ _ _ _ _ _ H)) in He. destruct He as (ad & _ & He).
  destruct (argument_coercer_error sch _ _ _ _ _ _ _ _ He) as [_ [->|(a & Hfa & ->)]]; [exact Hf|].
  apply find_arg_in in Hfa. rewrite Forall_forall in Ha. exact (Ha a Hfa).
Qed.

Lemma arg_errs_good (errs : list aerr) :
  Forall (fun ae : aerr => P (snd ae)) errs ->
  Forall perr_good (map (fun ae : aerr => {| p_path := None; p_locs := Some [snd ae];
                                            p_msg := MEngine "argument"; p_ext := false |}) errs).
Proof.
  intros H. apply Forall_map. eapply Forall_impl; [|exact H].
  intros ae Hae. constructor; [exact Hae|constructor].
Qed.

Lemma resolved_good ptype source p fd node rest l :
  Forall node_good (node :: rest) -> fst (resolved sch vs U ptype source p fd node) = OExc l -> Forall perr_good l.
Proof.
  intros Hn. inversion Hn as [|x xs (Hl & Hargs & _) _]; subst. unfold resolved.
  destruct (String.eqb (fn_name node) "__typename"); [discriminate|].
  destruct (coerce_arguments sch 20 (fd_args fd) (fn_loc node) (fn_args node) vs) as [[args errs]|e] eqn:Eca; [|discriminate].
  pose proof (coerce_arguments_loc _ _ _ _ _ _ Hl Hargs Eca) as Herrs. destruct errs as [|e es].
  - destruct (has_resolver U ptype (fd_name fd)); [|discriminate].
    destruct (resolver U p ptype (fd_name fd) source args); [discriminate|]. intros H; inversion H. constructor; [exact I|constructor].
  - intros H; inversion H. exact (arg_errs_good (e :: es) Herrs).
Qed.

Lemma sub_good rt nodes sub k ns :
  Forall node_good nodes -> collect_subfields sch doc vs COLLECT_FUEL rt nodes [] [] = Some sub -> In (k, ns) sub ->
  Forall node_good ns.
Proof.
  intros Hn Hc Hin. assert (H : fields_good sub) by (eapply collect_subfields_good; [exact Hn|constructor|exact Hc]).
  unfold fields_good in H. rewrite Forall_forall in H. exact (H _ Hin).
Qed.

Theorem execute_operation_locations op root r :
  sels_good (o_sels op) ->
  execute_operation sch doc vs U cfg op root = OVal r -> Forall gerr_good (r_errors r).
Proof.
  intros Hop. rewrite execute_operation_eq. destruct (root_type_of sch (o_kind op)) as [rt|]; [|discriminate].
  destruct (collect_fields sch doc vs COLLECT_FUEL rt (o_sels op) [] []) as [[fs v]|] eqn:Hc; [|discriminate].
  assert (Hfs : forall k ns, In (k, ns) fs -> Forall node_good ns).
  { assert (H : fields_good fs) by (eapply collect_fields_good; [exact Hop|constructor|exact Hc]).
    unfold fields_good in H. rewrite Forall_forall in H. intros k ns Hin. exact (H _ Hin). }
  pose proof (eff_run_operation _ _ _ locations_closed sch doc vs U cfg sub_good resolved_good op rt root fs Hfs) as Hrun.
  destruct (run_operation _ _ _ _ _ _ _ _ _ st0) as [[kv|l|e] s] eqn:E;
    destruct (Hrun _ _ _ E) as [(new & En & Fn) R]; intros H; inversion H;
    rewrite En; [exact Fn|].
  apply Forall_app. split; [exact Fn|]. apply Forall_map. eapply Forall_impl; [|exact R]. apply finalize_good.
Qed.

End Exec.

Lemma select_operation_in d name op : select_operation d name = Some op -> In op (operations d).
Proof.
  unfold select_operation. destruct name as [n|].
  - assert (H : forall ops acc,
      fold_left (fun acc op0 => match o_name op0 with
                               | Some m => if String.eqb m n then Some op0 else acc
                               | None => acc end) ops acc = Some op ->
      In op ops \/ acc = Some op).
    { induction ops as [|o ops IH]; intros acc; [auto|].
      intros H. destruct (IH _ H) as [Hin|Hacc]; [left; now right|].
      destruct (o_name o) as [m|]; [|auto]. destruct (String.eqb m n); [|auto].
      inversion Hacc. left; now left. }
    intros Hs. destruct (H _ _ Hs) as [Hin|Hn]; [exact Hin|discriminate].
  - destruct (operations d) as [|o [|o' os]]; try discriminate. intros H; inversion H. now left.
Qed.

Lemma vdef_loc_good vds n : Forall (fun vd => P (v_loc vd)) vds -> Forall P (vdef_loc vds n).
Proof.
  intros H. unfold vdef_loc. induction H as [|vd vds Hvd Hvds IH]; cbn [flat_map]; [constructor|].
  destruct (String.eqb (v_name vd) n); [constructor; assumption|exact IH].
Qed.

Theorem impl_execute_locations sch d U cfg opname raw root r :
  doc_good d ->
  impl_execute sch d U cfg opname raw root = OVal r -> Forall gerr_good (r_errors r).
Proof.
  intros [Hops Hfr]. unfold impl_execute.
  destruct (select_operation d opname) as [op|] eqn:Hs.
  - apply select_operation_in in Hs. rewrite Forall_forall in Hops. destruct (Hops _ Hs) as [Hv Hsels].
    destruct (coerce_variables sch 40 (o_vars op) raw) as [[vs [|e es]]|e]; [| |discriminate].
    + now apply execute_operation_locations.
    + intros H; inversion H.
      change (Forall gerr_good (map (verr_to_gerr (o_vars op)) (e :: es))).
      apply Forall_map. apply Forall_forall. intros x _.
      now apply vdef_loc_good.
  - intros H; inversion H. constructor; [constructor|constructor].
Qed.

(* through Engine.execute: every location handed to the error coercer, for a parsed and accepted
   document, is one of the document's own *)
Theorem engine_execute_locations A (coercer : gerr -> A) sch U cfg d opname raw root :
  doc_good d ->
  Forall gerr_good (e_coercer_calls A (engine_execute A coercer sch U cfg (PDoc d) opname raw root)).
Proof.
  intros Hd. unfold engine_execute.
  destruct (impl_execute sch d U cfg opname raw root) as [r|l|e] eqn:E.
  - eapply impl_execute_locations; eauto.
  - constructor; [constructor|constructor].
  - constructor; [constructor|constructor].
Qed.

End Locs.
