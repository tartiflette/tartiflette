(* Rules of the validation walk proved EXACT against the specification predicates, for every
   document and schema: lone anonymous operation (5.2.2.1), fragments must be used (5.5.1.4),
   fragment spread target defined (5.5.2.1).  The last two read the list of spreads the walk
   accumulates in its shared context; the bookkeeping lemma shows that this list is exactly the
   document's spreads, in document order, whatever else the walk records. *)
From Coq Require Import List String Lia Arith.
From TV Require Import Model.Schema Model.ImplValidate Model.SpecValidate Proofs.ListFacts Proofs.ValidateFrame.
Import ListNotations.

(* 5.2.2.1 lone anonymous operation *)
Definition anon (o : operation) : bool := match o_name o with None => true | Some _ => false end.

Lemma filter_nil_existsb {A} (p : A -> bool) l : filter p l = [] <-> existsb p l = false.
Proof.
  induction l as [|x l IH]; cbn; [tauto|]. destruct (p x); [split; discriminate|exact IH].
Qed.

Theorem lone_anonymous_exact ops :
  lone_anonymous_errors ops = [] <->
  (if existsb anon ops then (List.length ops =? 1)%nat else true) = true.
Proof.
  unfold lone_anonymous_errors. fold anon.
  destruct (existsb anon ops) eqn:Ee.
  - destruct (1 <? List.length ops)%nat eqn:El.
    + destruct (filter anon ops) as [|b bs] eqn:Ef.
      * apply filter_nil_existsb in Ef. congruence.
      * apply Nat.ltb_lt in El. split; [discriminate|]. intros H. apply Nat.eqb_eq in H. lia.
    + split; [|reflexivity]. intros _.
      destruct ops as [|o [|o' r]]; cbn in *; lia.
  - apply filter_nil_existsb in Ee. rewrite Ee. destruct (1 <? List.length ops)%nat; tauto.
Qed.

(* 5.5.1.4 fragments must be used, 5.5.2.1 spread target defined, over any list of spreads *)
Lemma existsb_fst_mem (sp : list (string * loc)) n :
  existsb (fun s => String.eqb (fst s) n) sp = mem_str n (map fst sp).
Proof.
  induction sp as [|[k l] sp IH]; [reflexivity|]. cbn. rewrite IH, String.eqb_sym. reflexivity.
Qed.

Theorem must_be_used_exact_on frs (sp : list (string * loc)) :
  must_be_used_errors frs sp = [] <-> forallb (fun f => mem_str (fr_name f) (map fst sp)) frs = true.
Proof.
  unfold must_be_used_errors. induction frs as [|f frs IH]; cbn [flat_map forallb]; [tauto|].
  rewrite existsb_fst_mem. destruct (mem_str (fr_name f) (map fst sp)).
  - exact IH.
  - split; discriminate.
Qed.

Theorem spread_targets_exact_on frs (sp : list (string * loc)) :
  spread_target_errors frs sp = [] <->
  forallb (fun n => match find_fragment frs n with Some _ => true | None => false end) (map fst sp) = true.
Proof.
  unfold spread_target_errors. split.
  - intros H. apply map_eq_nil in H. apply group_by_name_nil in H. destruct H as [H _].
    induction sp as [|[k l] sp IH]; [reflexivity|]. cbn [map forallb fst]. cbn [filter fst] in H.
    destruct (find_fragment frs k); [apply IH; exact H|discriminate].
  - intros H.
    assert (E : filter (fun s : string * loc => match find_fragment frs (fst s) with None => true | Some _ => false end) sp = []).
    { induction sp as [|[k l] sp IH]; [reflexivity|]. cbn [map forallb fst] in H. cbn [filter fst].
      destruct (find_fragment frs k); [apply IH; exact H|discriminate]. }
    rewrite E. reflexivity.
Qed.

Section Walk.
Variable V : vschema.

Lemma emit_fs b r st : frag_spreads (emit b r st) = frag_spreads st.
Proof. exact (f_equal frag_spreads (emit_books_of b r st)). Qed.
Lemma emit_ok_fs es st : frag_spreads (emit_ok es st) = frag_spreads st.
Proof. apply emit_fs. Qed.

(* the spreads written in a selection, in document order *)
Fixpoint sp_of_sel (s : selection) : list (string * loc) :=
  match s with
  | SField _ _ _ _ _ sels => (fix go (xs : list selection) := match xs with [] => [] | x :: r => sp_of_sel x ++ go r end) sels
  | SSpread l n _ => [(n, l)]
  | SInline _ _ _ sels => (fix go (xs : list selection) := match xs with [] => [] | x :: r => sp_of_sel x ++ go r end) sels
  end.
Definition sp_of_sels (sels : list selection) : list (string * loc) := flat_map sp_of_sel sels.
Lemma sp_go_flat sels :
  (fix go (xs : list selection) := match xs with [] => [] | x :: r => sp_of_sel x ++ go r end) sels = sp_of_sels sels.
Proof. reflexivity. Qed.

Lemma walk_selections_fs_of path sels :
  Forall (fun s => forall path st, frag_spreads (walk_selection V path s st) = frag_spreads st ++ sp_of_sel s) sels ->
  forall st, frag_spreads (walk_selections V path sels st) = frag_spreads st ++ sp_of_sels sels.
Proof. intros H. apply fold_left_appends. intros st s Hs. exact (proj1 (Forall_forall _ _) H s Hs path st). Qed.

Lemma walk_selection_fs s : forall path st, frag_spreads (walk_selection V path s st) = frag_spreads st ++ sp_of_sel s.
Proof.
  induction s as [l alias name args dirs sels IH|l name dirs|l tc dirs sels IH] using selection_ind2; intros path st.
  - rewrite walk_selection_field.
    rewrite (outer_frag_spreads _ _ (field_rules_outer V _ _ _ _ _ _ _)). cbn [frag_spreads RecordUpdate.RecordSet.set].
    rewrite (walk_selections_fs_of _ sels IH), (outer_frag_spreads _ _ (walk_directives_outer V _ _ _)),
      (outer_frag_spreads _ _ (walk_arguments_outer _ _ _)). reflexivity.
  - cbn [walk_selection sp_of_sel]. rewrite (outer_frag_spreads _ _ (upd_scope_outer _ _)). cbn [frag_spreads RecordUpdate.RecordSet.set].
    now rewrite emit_ok_fs, (outer_frag_spreads _ _ (walk_directives_outer V _ _ _)).
  - rewrite walk_selection_inline. cbn [frag_spreads RecordUpdate.RecordSet.set].
    rewrite !emit_ok_fs, (walk_selections_fs_of _ sels IH), (outer_frag_spreads _ _ (walk_directives_outer V _ _ _)).
    destruct tc; reflexivity.
Qed.

Lemma walk_selections_fs path sels st :
  frag_spreads (walk_selections V path sels st) = frag_spreads st ++ sp_of_sels sels.
Proof. apply walk_selections_fs_of, Forall_forall. intros s _. apply walk_selection_fs. Qed.

Lemma walk_operation_fs o st : frag_spreads (walk_operation V o st) = frag_spreads st ++ sp_of_sels (o_sels o).
Proof.
  unfold walk_operation.
  now rewrite emit_ok_fs, walk_selections_fs, (outer_frag_spreads _ _ (walk_directives_outer V _ _ _)),
    (outer_frag_spreads _ _ (walk_vardefs_outer V _ _)).
Qed.
Lemma walk_fragment_fs f st : frag_spreads (walk_fragment V f st) = frag_spreads st ++ sp_of_sels (fr_sels f).
Proof.
  unfold walk_fragment. cbn [frag_spreads RecordUpdate.RecordSet.set].
  now rewrite !emit_ok_fs, walk_selections_fs, (outer_frag_spreads _ _ (walk_directives_outer V _ _ _)).
Qed.

Definition doc_spreads (doc : document) : list (string * loc) :=
  flat_map (fun o => sp_of_sels (o_sels o)) (operations doc) ++ flat_map (fun f => sp_of_sels (fr_sels f)) (fragments doc).

(* the state the document-level rules start from *)
Definition walked (doc : document) : vctx :=
  fold_left (fun st f => walk_fragment V f st) (fragments doc)
    (fold_left (fun st o => walk_operation V o st) (operations doc) init_ctx).

Theorem walked_spreads doc : frag_spreads (walked doc) = doc_spreads doc.
Proof.
  unfold walked.
  rewrite (fold_left_appends frag_spreads _ (fun f => sp_of_sels (fr_sels f))) by (intros; apply walk_fragment_fs).
  rewrite (fold_left_appends frag_spreads _ (fun o => sp_of_sels (o_sels o))) by (intros; apply walk_operation_fs).
  reflexivity.
Qed.

(* the specification's spread sites are the same list of names *)
Definition site_spread_name (s : site) : list string := match s with SiteSpread _ n _ => [n] | _ => [] end.

Lemma sites_of_sels_spreads_of sels :
  Forall (fun s => forall scope, flat_map site_spread_name (sites_of V scope s) = map fst (sp_of_sel s)) sels ->
  forall scope, flat_map site_spread_name (sites_of_sels V scope sels) = map fst (sp_of_sels sels).
Proof.
  induction 1 as [|x r Hx _ IH]; intros scope; [reflexivity|].
  cbn [sites_of_sels sp_of_sels flat_map]. rewrite flat_map_app, map_app, Hx. f_equal. apply IH.
Qed.

Lemma sites_spreads s : forall scope, flat_map site_spread_name (sites_of V scope s) = map fst (sp_of_sel s).
Proof.
  induction s as [l alias name args dirs sels IH|l name dirs|l tc dirs sels IH] using selection_ind2; intros scope.
  - exact (sites_of_sels_spreads_of sels IH _).
  - reflexivity.
  - exact (sites_of_sels_spreads_of sels IH _).
Qed.

Lemma sites_of_sels_spreads scope sels :
  flat_map site_spread_name (sites_of_sels V scope sels) = map fst (sp_of_sels sels).
Proof. apply sites_of_sels_spreads_of, Forall_forall. intros s _. apply sites_spreads. Qed.

Theorem spread_names_are_the_walks doc : spread_names V doc = map fst (frag_spreads (walked doc)).
Proof.
  rewrite walked_spreads. unfold spread_names, doc_sites, doc_spreads.
  rewrite flat_map_app, map_app. f_equal.
  - induction (operations doc) as [|o r IH]; [reflexivity|]. cbn [flat_map]. rewrite flat_map_app, map_app, IH, sites_of_sels_spreads. reflexivity.
  - induction (fragments doc) as [|f r IH]; [reflexivity|]. cbn [flat_map]. rewrite flat_map_app, map_app, IH, sites_of_sels_spreads. reflexivity.
Qed.

Theorem must_be_used_exact doc :
  must_be_used_errors (fragments doc) (frag_spreads (walked doc)) = [] <-> r_fragments_used V doc = true.
Proof. unfold r_fragments_used. rewrite spread_names_are_the_walks. apply must_be_used_exact_on. Qed.

Theorem spread_targets_exact doc :
  spread_target_errors (fragments doc) (frag_spreads (walked doc)) = [] <-> r_spread_targets V doc = true.
Proof. unfold r_spread_targets. rewrite spread_names_are_the_walks. apply spread_targets_exact_on. Qed.

Theorem lone_anonymous_exact_doc doc :
  lone_anonymous_errors (operations doc) = [] <-> r_lone_anonymous doc = true.
Proof. apply lone_anonymous_exact. Qed.

(* ... and this is the list validate_ctx hands to the two rules: the emits in between do not touch it *)
Theorem validate_ctx_reads_the_documents_spreads doc :
  validate_ctx V doc =
  let st := walked doc in
  let frs := fragments doc in
  let ops := operations doc in
  let st := emit true (cycle_rule frs) st in
  let st := emit_ok (operation_name_errors ops) st in
  let st := emit_ok (lone_anonymous_errors ops) st in
  let st := emit false (single_root_rule doc) st in
  let st := emit_ok (fragment_name_errors frs) st in
  let st := emit_ok (spread_target_errors frs (doc_spreads doc)) st in
  let st := emit_ok (must_be_used_errors frs (doc_spreads doc)) st in
  let st := emit_ok (inline_possible_errors V (inlined_in st) ++ spread_possible_errors V frs (spreaded_in st)) st in
  let st := emit false (uses_defined_rule st ops) st in
  let st := emit false (variables_used_rule st ops) st in
  emit false (usages_allowed_rule V st ops) st.
Proof.
  pose proof (walked_spreads doc) as Hw. unfold walked in Hw.
  unfold validate_ctx.
  repeat (rewrite emit_ok_fs || rewrite emit_fs). rewrite Hw. reflexivity.
Qed.

End Walk.
