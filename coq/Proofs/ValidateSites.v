(* The per-site rules of the validation walk, each EXACT against the specification's predicate at that
   site, for every schema: argument names (5.4.1), required arguments (5.4.2.1), directives in valid
   locations (5.7.2), leaf selections (5.3.3), type-condition existence / compositeness (5.5.1.2, 5.5.1.3).  Proofs/ValidateTree.v puts them together along the selection tree. *)
From Coq Require Import List String Bool.
From TV Require Import Model.Schema Model.ImplValidate Model.SpecValidate Proofs.ListFacts.
Import ListNotations.

Section Sites.
Variable V : vschema.

(* 5.4.1 *)
Theorem argument_names_exact path ds args :
  argument_names_errors path (Some ds) args = [] <->
  forallb (fun a => existsb (fun d => String.eqb (in_name d) (a_name a)) ds) args = true.
Proof.
  unfold argument_names_errors. rewrite flat_map_nil_iff, forallb_forall. split; intros H a Ha; specialize (H a Ha).
  - destruct (existsb _ ds); [reflexivity|discriminate].
  - now rewrite H.
Qed.

(* 5.4.2.1 *)
Theorem required_arguments_exact path ds l args :
  required_arguments_errors path (Some ds) l args = [] <->
  forallb (fun d => negb (is_non_null (in_type d)) || match in_default d with Some _ => true | None => false end ||
                    existsb (fun a => String.eqb (a_name a) (in_name d)) args) ds = true.
Proof.
  unfold required_arguments_errors. rewrite flat_map_nil_iff, forallb_forall. split; intros H d Hd; specialize (H d Hd).
  - destruct (is_non_null (in_type d)), (in_default d), (existsb _ args); try reflexivity; discriminate.
  - destruct (is_non_null (in_type d)), (in_default d), (existsb _ args); try reflexivity; discriminate.
Qed.

(* 5.7.2 *)
Theorem valid_locations_exact path where_ l ds :
  valid_locations_errors V path where_ l ds = [] <->
  forallb (fun d => match s_directive V (d_name d) with
                    | Some dd => mem_str where_ (dd_locs dd)
                    | None => true end) ds = true.
Proof.
  unfold valid_locations_errors, s_directive. rewrite flat_map_nil_iff, forallb_forall. split; intros H d Hd; specialize (H d Hd).
  - destruct (vfind_directive V (d_name d)) as [dd|]; [|reflexivity]. destruct (mem_str where_ (dd_locs dd)); [reflexivity|discriminate].
  - destruct (vfind_directive V (d_name d)) as [dd|]; [|reflexivity]. now rewrite H.
Qed.

(* 5.3.3 of one field against its reduced type *)
Theorem leaf_selection_exact path l (d : typedef) has_sels :
  (if negb has_sels && is_composite_def d then [mkerr "leaf-field-selections" path [l]]
   else if has_sels && negb (is_composite_def d) then [mkerr "leaf-field-selections" path [l]] else []) = [] <->
  Bool.eqb has_sels (is_composite_def d) = true.
Proof. destruct has_sels, (is_composite_def d); split; try reflexivity; discriminate. Qed.

(* 5.5.1.2 / 5.5.1.3 at a type condition *)
Theorem type_condition_exists_exact path l t :
  (if has_type V t then [] else [mkerr "fragment-spread-type-existence" path [l]]) = [] <->
  (match s_type V t with Some _ => true | None => false end) = true.
Proof. unfold has_type, s_type. destruct (vfind_type V t); split; try reflexivity; discriminate. Qed.

Theorem type_condition_composite_exact path l t :
  (match vfind_type V t with
   | Some d => if is_composite_def d then [] else [mkerr "fragments-on-composite-types" path [l]]
   | None => [] end) = [] <->
  (match s_type V t with Some d => is_composite_def d | None => true end) = true.
Proof. unfold s_type. destruct (vfind_type V t) as [d|]; [destruct (is_composite_def d)|]; split; try reflexivity; discriminate. Qed.

End Sites.
