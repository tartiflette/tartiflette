(* Rule 5.5.2.3 (fragment spread is possible), EXACT.  The walk records every inline fragment and every fragment
   spread under the type scope it is written in (`inlined_in`, `spreaded_in` of the shared context); this file shows
   that what it records is a PURE function of the document -- the entries of each selection tree with the scope handed
   down as the walk's parent_type bookkeeping does -- and that the rule reports nothing exactly when every recorded
   inline fragment with a type condition, and every spread of a defined fragment, can apply in its scope
   (both composite => their possible types intersect). *)
From Coq Require Import List String Lia.
From TV Require Import Model.Schema Model.ImplValidate Model.SpecValidate Proofs.ListFacts Proofs.ValidateFrame Proofs.ValidateWalk.
From RecordUpdate Require Import RecordSet.
Import ListNotations.
Import RecordSetNotations.

Section Spreads.
Variable V : vschema.

(* steps that leave the scope and the two books alone *)
Definition K (st st' : vctx) : Prop :=
  parent_type st' = parent_type st /\ inlined_in st' = inlined_in st /\ spreaded_in st' = spreaded_in st.

Lemma outer_K st st' : outer st' = outer st -> K st st'.
Proof. intros H. exact (conj (outer_parent_type _ _ H) (conj (outer_inlined_in _ _ H) (outer_spreaded_in _ _ H))). Qed.

(* what the walk records below a selection: a pure function of the scope *)
Definition ientry := (option string * (option string * loc))%type.                 (* scope, (type condition, location) *)
Definition sentry := (option string * (string * loc * option (list pkey)))%type.  (* scope, (fragment name, location, path) *)

Definition inner_scope (scope tc : option string) : option string := match tc with Some t => Some t | None => scope end.

Fixpoint inl_of (scope : option string) (s : selection) {struct s} : list ientry :=
  match s with
  | SField _ _ name _ _ sels =>
      (fix go (xs : list selection) : list ientry :=
         match xs with [] => [] | x :: r => inl_of (field_type_name V scope name) x ++ go r end) sels
  | SSpread _ _ _ => []
  | SInline l tc _ sels =>
      (fix go (xs : list selection) : list ientry :=
         match xs with [] => [] | x :: r => inl_of (inner_scope scope tc) x ++ go r end) sels ++ [(scope, (tc, l))]
  end.

Fixpoint spr_of (scope : option string) (path : opath) (s : selection) {struct s} : list sentry :=
  match s with
  | SField _ _ name _ _ sels =>
      (fix go (xs : list selection) : list sentry :=
         match xs with [] => [] | x :: r => spr_of (field_type_name V scope name) (path_push path name) x ++ go r end) sels
  | SSpread l name _ => [(scope, (name, l, path))]
  | SInline _ tc _ sels =>
      (fix go (xs : list selection) : list sentry :=
         match xs with [] => [] | x :: r => spr_of (inner_scope scope tc) path x ++ go r end) sels
  end.

Definition inl_of_sels scope sels : list ientry := flat_map (inl_of scope) sels.
Definition spr_of_sels scope path sels : list sentry := flat_map (spr_of scope path) sels.

Definition addI (G : list (option string * list (option string * loc))) (e : ientry) :=
  upd_assoc opt_str_eqb (fst e) [] (fun x => x ++ [snd e]) G.
Definition addS (G : list (option string * list (string * loc * option (list pkey)))) (e : sentry) :=
  upd_assoc opt_str_eqb (fst e) [] (fun x => x ++ [snd e]) G.

(* what a step records in inlined_in / spreaded_in, and the scope it ends in *)
Definition books (scope : option string) (IE : list ientry) (SE : list sentry) (st st' : vctx) : Prop :=
  parent_type st' = scope /\
  inlined_in st' = fold_left addI IE (inlined_in st) /\
  spreaded_in st' = fold_left addS SE (spreaded_in st).

Lemma books_trans {scope I1 S1 I2 S2 a b c} :
  books scope I1 S1 a b -> books scope I2 S2 b c -> books scope (I1 ++ I2) (S1 ++ S2) a c.
Proof.
  intros (A1 & A2 & A3) (B1 & B2 & B3). split; [exact B1|]. rewrite !fold_left_app. split; congruence.
Qed.
Lemma books_then_K scope IE SE a b c : books scope IE SE a b -> K b c -> books scope IE SE a c.
Proof. intros (A1 & A2 & A3) (B1 & B2 & B3). repeat split; congruence. Qed.
Lemma K_then_books scope IE SE a b c : K a b -> books scope IE SE b c -> books scope IE SE a c.
Proof.
  intros (A1 & A2 & A3) (B1 & B2 & B3). repeat split; congruence.
Qed.

Definition books_sel (s : selection) : Prop := forall path st,
  books (parent_type st) (inl_of (parent_type st) s) (spr_of (parent_type st) path s) st (walk_selection V path s st).

Lemma walk_selections_books_of path sels : Forall books_sel sels -> forall st,
  books (parent_type st) (inl_of_sels (parent_type st) sels) (spr_of_sels (parent_type st) path sels) st (walk_selections V path sels st).
Proof.
  induction 1 as [|x r Hx _ IH]; intros st; [repeat split|].
  pose proof (Hx path st) as B1. pose proof (IH (walk_selection V path x st)) as B2. rewrite (proj1 B1) in B2.
  exact (books_trans B1 B2).
Qed.

Lemma walk_selection_books s : books_sel s.
Proof.
  induction s as [l alias name args dirs sels IH|l name dirs|l tc dirs sels IH] using selection_ind2; intros path st.
  - rewrite walk_selection_field.
    set (path' := path_push path name).
    set (st1 := st <| parent_type := field_type_name V (parent_type st) name |> <| in_directive := false |> <| cur_field := _ |>).
    set (st3 := walk_directives V path' dirs (walk_arguments path' args st1)).
    assert (K3 : K st1 st3) by (apply outer_K; unfold st3; rewrite walk_directives_outer; apply walk_arguments_outer).
    pose proof (walk_selections_books_of path' sels IH st3) as B4. rewrite (proj1 K3) in B4.
    refine (books_then_K _ _ _ _ _ _ _ (outer_K _ _ (field_rules_outer V _ _ _ _ _ _ _))).
    exact (conj eq_refl (proj2 (K_then_books _ _ _ _ _ _ K3 B4))).
  - refine (books_then_K _ _ _ _ _ _ _ (outer_K _ _ (upd_scope_outer _ _))).
    set (st1 := emit_ok _ (walk_directives V path dirs st)).
    assert (K1 : K st st1) by (apply outer_K; unfold st1; rewrite emit_ok_outer; apply walk_directives_outer).
    destruct K1 as (A & B & C). repeat split; cbn; [exact A|exact B|]. now rewrite A, C.
  - rewrite walk_selection_inline. cbv zeta.
    change (inl_of (parent_type st) (SInline l tc dirs sels))
      with (inl_of_sels (inner_scope (parent_type st) tc) sels ++ [(parent_type st, (tc, l))]).
    set (st1 := match tc with Some t => st <| parent_type := Some t |> | None => st end).
    assert (K1 : parent_type st1 = inner_scope (parent_type st) tc /\ inlined_in st1 = inlined_in st /\ spreaded_in st1 = spreaded_in st)
      by (destruct tc; repeat split).
    set (st2 := walk_directives V path dirs st1).
    assert (K2 : K st1 st2) by (apply outer_K, walk_directives_outer).
    pose proof (walk_selections_books_of path sels IH st2) as B3. rewrite (proj1 K2), (proj1 K1) in B3.
    set (st3 := walk_selections V path sels st2) in *.
    set (st6 := emit_ok _ (emit_ok _ (emit_ok _ st3))).
    assert (K6 : K st3 st6) by (apply outer_K; unfold st6; now rewrite !emit_ok_outer).
    destruct (books_then_K _ _ _ _ _ _ (K_then_books _ _ _ _ _ _ K2 B3) K6) as (_ & I6 & S6). destruct K1 as (_ & I1 & S1).
    repeat split; cbn [parent_type inlined_in spreaded_in set].
    + rewrite fold_left_app. now rewrite I6, I1.
    + now rewrite S6, S1.
Qed.

Lemma walk_selections_books path sels st :
  books (parent_type st) (inl_of_sels (parent_type st) sels) (spr_of_sels (parent_type st) path sels) st (walk_selections V path sels st).
Proof. apply walk_selections_books_of, Forall_forall. intros s _ p st0. apply walk_selection_books. Qed.

Definition op_inl (o : operation) := inl_of_sels (op_root V (o_kind o)) (o_sels o).
Definition op_spr (o : operation) := spr_of_sels (op_root V (o_kind o)) None (o_sels o).
Definition fr_inl (f : fragment) := inl_of_sels (Some (fr_type f)) (fr_sels f).
Definition fr_spr (f : fragment) := spr_of_sels (Some (fr_type f)) None (fr_sels f).

Lemma walk_operation_books o st :
  inlined_in (walk_operation V o st) = fold_left addI (op_inl o) (inlined_in st) /\
  spreaded_in (walk_operation V o st) = fold_left addS (op_spr o) (spreaded_in st).
Proof.
  unfold walk_operation.
  set (st1 := st <| parent_type := op_root V (o_kind o) |> <| in_operation := true |> <| cur_op := op_key o |> <| per_op ::= _ |>).
  set (st3 := walk_directives V None (o_dirs o) (walk_vardefs V (o_vars o) st1)).
  assert (K3 : K st1 st3) by (apply outer_K; unfold st3; rewrite walk_directives_outer; apply walk_vardefs_outer).
  pose proof (walk_selections_books None (o_sels o) st3) as B4. rewrite (proj1 K3) in B4.
  exact (proj2 (books_then_K _ _ _ _ _ _ (K_then_books _ _ _ _ _ _ K3 B4) (outer_K _ _ (emit_ok_outer _ _)))).
Qed.

Lemma walk_fragment_books f st :
  inlined_in (walk_fragment V f st) = fold_left addI (fr_inl f) (inlined_in st) /\
  spreaded_in (walk_fragment V f st) = fold_left addS (fr_spr f) (spreaded_in st).
Proof.
  unfold walk_fragment.
  set (st1 := st <| parent_type := Some (fr_type f) |> <| in_operation := false |> <| cur_frag := fr_name f |> <| per_frag ::= _ |>).
  set (st2 := walk_directives V None (fr_dirs f) st1).
  assert (K2 : K st1 st2) by (apply outer_K, walk_directives_outer).
  pose proof (walk_selections_books None (fr_sels f) st2) as B3. rewrite (proj1 K2) in B3.
  set (st6 := emit_ok _ (emit_ok _ (emit_ok _ (walk_selections V None (fr_sels f) st2)))).
  assert (K6 : K (walk_selections V None (fr_sels f) st2) st6) by (apply outer_K; unfold st6; now rewrite !emit_ok_outer).
  exact (proj2 (books_then_K _ _ _ _ _ _ (K_then_books _ _ _ _ _ _ K2 B3) K6)).
Qed.

Definition doc_inl (doc : document) : list ientry := flat_map op_inl (operations doc) ++ flat_map fr_inl (fragments doc).
Definition doc_spr (doc : document) : list sentry := flat_map op_spr (operations doc) ++ flat_map fr_spr (fragments doc).

Theorem walked_books doc :
  inlined_in (walked V doc) = fold_left addI (doc_inl doc) [] /\
  spreaded_in (walked V doc) = fold_left addS (doc_spr doc) [].
Proof.
  unfold walked, doc_inl, doc_spr. rewrite !fold_left_app. split.
  - rewrite (fold_left_folds inlined_in _ addI fr_inl) by (intros; apply walk_fragment_books).
    now rewrite (fold_left_folds inlined_in _ addI op_inl) by (intros; apply walk_operation_books).
  - rewrite (fold_left_folds spreaded_in _ addS fr_spr) by (intros; apply walk_fragment_books).
    now rewrite (fold_left_folds spreaded_in _ addS op_spr) by (intros; apply walk_operation_books).
Qed.

Lemma opt_str_eqb_eq a b : opt_str_eqb a b = true <-> a = b.
Proof.
  destruct a as [x|], b as [y|]; split; intros H; try discriminate; try reflexivity.
  - apply String.eqb_eq in H. now subst.
  - injection H as ->. apply String.eqb_refl.
Qed.

Section Groups.
Context {A : Type}.
Definition gmem (G : list (option string * list A)) (k : option string) (m : A) : Prop :=
  exists ms, In (k, ms) G /\ In m ms.
(* addI and addS are gadd at their entry types, by conversion *)
Definition gadd (G : list (option string * list A)) (e : option string * A) :=
  upd_assoc opt_str_eqb (fst e) [] (fun x => x ++ [snd e]) G.

Lemma gadd_mem G e k m : gmem (gadd G e) k m <-> gmem G k m \/ (k, m) = e.
Proof.
  destruct e as [k0 m0]. unfold gadd. cbn [fst snd].
  induction G as [|[k' ms'] G IH]; cbn [upd_assoc].
  - split.
    + intros (ms & [H|[]] & Hm). injection H as <- <-. destruct Hm as [<-|[]]. now right.
    + intros [(ms & [] & _)|H]. injection H as -> ->. exists [m0]. split; [now left|now left].
  - destruct (opt_str_eqb k0 k') eqn:E.
    + apply opt_str_eqb_eq in E. subst k'. split.
      * intros (ms & [H|H] & Hm).
        -- injection H as <- <-. apply in_app_or in Hm. destruct Hm as [Hm|[<-|[]]]; [left; exists ms'; split; [now left|exact Hm]|now right].
        -- left. exists ms. split; [now right|exact Hm].
      * intros [(ms & [H|H] & Hm)|H].
        -- injection H as <- <-. exists (ms' ++ [m0]). split; [now left|apply in_or_app; now left].
        -- exists ms. split; [now right|exact Hm].
        -- injection H as -> ->. exists (ms' ++ [m0]). split; [now left|apply in_or_app; right; now left].
    + split.
      * intros (ms & [H|H] & Hm).
        -- injection H as <- <-. left. exists ms'. split; [now left|exact Hm].
        -- destruct (proj1 IH (ex_intro _ ms (conj H Hm))) as [(ms2 & H2 & Hm2)|H2]; [left; exists ms2; split; [now right|exact Hm2]|now right].
      * intros [(ms & [H|H] & Hm)|H].
        -- injection H as <- <-. exists ms'. split; [now left|exact Hm].
        -- destruct (proj2 IH (or_introl (ex_intro _ ms (conj H Hm)))) as (ms2 & H2 & Hm2). exists ms2. split; [now right|exact Hm2].
        -- destruct (proj2 IH (or_intror H)) as (ms2 & H2 & Hm2). exists ms2. split; [now right|exact Hm2].
Qed.

Lemma gfold_mem E : forall G k m, gmem (fold_left gadd E G) k m <-> gmem G k m \/ In (k, m) E.
Proof.
  induction E as [|e E IH]; intros G k m; cbn [fold_left].
  - split; [now left|intros [H|[]]; exact H].
  - rewrite IH, gadd_mem. split.
    + intros [[H|H]|H]; [now left|right; left; now symmetry|right; now right].
    + intros [H|[H|H]]; [left; now left|left; right; now symmetry|now right].
Qed.
End Groups.

(* can a fragment with this type condition apply in this scope?  (the specification's rule: when both are
   composite their possible types must intersect) *)
Definition applies_in (scope tc : option string) : bool :=
  match composite_possible V scope with
  | None => true
  | Some ps => node_possible V tc ps
  end.

Lemma applies_in_spec scope t : applies_in scope (Some t) = applies V scope t.
Proof.
  unfold applies_in, applies, composite_possible, node_possible, s_composite, s_type.
  destruct scope as [p|]; [|reflexivity].
  destruct (vfind_type V p) as [dp|]; [|reflexivity].
  destruct (is_composite_def dp); [|reflexivity].
  destruct (vfind_type V t) as [dt|]; [|reflexivity]. reflexivity.
Qed.

Lemma inline_rule_exact G :
  inline_possible_errors V G = [] <-> forall k tc l, gmem G k (tc, l) -> applies_in k tc = true.
Proof.
  unfold inline_possible_errors. rewrite flat_map_nil_iff. split.
  - intros H k tc l (ms & Hin & Hm). specialize (H (k, ms) Hin). cbn [fst snd] in H. unfold applies_in.
    destruct (composite_possible V k) as [ps|]; [|reflexivity].
    rewrite flat_map_nil_iff in H. specialize (H (tc, l) Hm). cbn [fst snd] in H.
    destruct (node_possible V tc ps); [reflexivity|discriminate].
  - intros H [k ms] Hin. cbn [fst snd]. destruct (composite_possible V k) as [ps|] eqn:Ec; [|reflexivity].
    rewrite flat_map_nil_iff. intros [tc l] Hm. cbn [fst snd].
    pose proof (H k tc l (ex_intro _ ms (conj Hin Hm))) as Ha. unfold applies_in in Ha. rewrite Ec in Ha. now rewrite Ha.
Qed.

Lemma combine_found_fst {X Y} (found : list X) (ss : list Y) : (List.length found <= List.length ss)%nat -> map fst (combine found ss) = found.
Proof.
  revert ss. induction found as [|f r IH]; intros ss H; [reflexivity|]. destruct ss as [|y ss]; [cbn in H; lia|].
  cbn [combine map fst]. f_equal. apply IH. cbn in H. lia.
Qed.

Lemma found_length (frs : list fragment) {Y} (name : Y -> string) (ss : list Y) :
  (List.length (flat_map (fun s => match find_fragment frs (name s) with Some f => [f] | None => [] end) ss) <= List.length ss)%nat.
Proof.
  induction ss as [|y ss IH]; [reflexivity|]. cbn [flat_map]. rewrite app_length.
  destruct (find_fragment frs (name y)); cbn [List.length]; lia.
Qed.

(* the model zips the fragments found against the UNFILTERED list of spreads (as the engine does), so a reported error
   may carry the location and path of another spread; whether anything is reported depends on the fragments alone *)
Lemma spread_rule_exact frs G :
  spread_possible_errors V frs G = [] <->
  forall k n l p f, gmem G k (n, l, p) -> find_fragment frs n = Some f -> applies_in k (Some (fr_type f)) = true.
Proof.
  unfold spread_possible_errors. rewrite flat_map_nil_iff. split.
  - intros H k n l p f (ms & Hin & Hm) Hf. specialize (H (k, ms) Hin). cbn [fst snd] in H. unfold applies_in.
    destruct (composite_possible V k) as [ps|]; [|reflexivity].
    set (found := flat_map (fun s => match find_fragment frs (fst (fst s)) with Some f0 => [f0] | None => [] end) ms) in H.
    assert (Hfin : In f found).
    { apply in_flat_map. exists (n, l, p). split; [exact Hm|]. cbn [fst]. rewrite Hf. now left. }
    rewrite flat_map_nil_iff in H.
    pose proof (combine_found_fst found ms (found_length frs (fun s => fst (fst s)) ms)) as Hfst.
    rewrite <- Hfst in Hfin. apply in_map_iff in Hfin. destruct Hfin as ([f' s'] & Hf' & Hpair). cbn [fst] in Hf'. subst f'.
    specialize (H (f, s') Hpair). cbn beta iota in H. destruct (node_possible V (Some (fr_type f)) ps); [reflexivity|discriminate].
  - intros H [k ms] Hin. cbn [fst snd]. destruct (composite_possible V k) as [ps|] eqn:Ec; [|reflexivity].
    rewrite flat_map_nil_iff. intros [f s'] Hpair.
    assert (Hfin : In f (flat_map (fun s => match find_fragment frs (fst (fst s)) with Some f0 => [f0] | None => [] end) ms)).
    { apply in_combine_l in Hpair. exact Hpair. }
    apply in_flat_map in Hfin. destruct Hfin as ([[n l] p] & Hm & Hf). cbn [fst] in Hf.
    destruct (find_fragment frs n) as [f0|] eqn:Ef; [|contradiction]. destruct Hf as [<-|[]].
    pose proof (H k n l p f0 (ex_intro _ ms (conj Hin Hm)) Ef) as Ha. unfold applies_in in Ha. rewrite Ec in Ha. now rewrite Ha.
Qed.

Theorem possible_spreads_exact doc :
  inline_possible_errors V (inlined_in (walked V doc)) ++
  spread_possible_errors V (fragments doc) (spreaded_in (walked V doc)) = [] <->
  (forall scope tc l, In (scope, (tc, l)) (doc_inl doc) -> applies_in scope tc = true) /\
  (forall scope n l p f, In (scope, (n, l, p)) (doc_spr doc) -> find_fragment (fragments doc) n = Some f ->
                         applies_in scope (Some (fr_type f)) = true).
Proof.
  destruct (walked_books doc) as [HI HS]. rewrite HI, HS.
  split.
  - intros H. apply app_eq_nil in H. destruct H as [H1 H2].
    rewrite inline_rule_exact in H1. rewrite spread_rule_exact in H2. split.
    + intros scope tc l Hin. apply (H1 scope tc l). apply (gfold_mem (doc_inl doc) [] scope (tc, l)). now right.
    + intros scope n l p f Hin Hf. apply (H2 scope n l p f); [|exact Hf].
      apply (gfold_mem (doc_spr doc) [] scope (n, l, p)). now right.
  - intros [H1 H2].
    assert (E1 : inline_possible_errors V (fold_left addI (doc_inl doc) []) = []).
    { apply inline_rule_exact. intros k tc l Hm. apply (gfold_mem (doc_inl doc) [] k (tc, l)) in Hm.
      destruct Hm as [(ms & [] & _)|Hm]. now apply (H1 k tc l). }
    assert (E2 : spread_possible_errors V (fragments doc) (fold_left addS (doc_spr doc) []) = []).
    { apply spread_rule_exact. intros k n l p f Hm Hf. apply (gfold_mem (doc_spr doc) [] k (n, l, p)) in Hm.
      destruct Hm as [(ms & [] & _)|Hm]. now apply (H2 k n l p f). }
    now rewrite E1.
Qed.

End Spreads.
