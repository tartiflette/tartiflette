(* Acceptance characterised.  The walk phase of the validation (Proofs/ValidateWalk.v: a pure function of the
   document) reports nothing EXACTLY when every node of every selection tree satisfies the specification's
   predicates at that node -- argument and directive rules, values of correct type at every depth, field /
   leaf / type-condition rules -- with the scope handed down the tree.  With the document-level rules proved
   exact elsewhere (cycles, names, lone anonymous operation, fragments used, spread targets) this gives an
   exact characterisation of the documents the engine hands to execution, five rule functions (single root
   field, possible spreads, the three variable rules) appearing as such. *)
From Coq Require Import List String Bool.
From TV Require Import Model.Schema Model.ImplValidate Model.SpecValidate Proofs.ListFacts Proofs.ValidateProofs
     Proofs.ValidateFrame Proofs.ValidateRules Proofs.ValidateValues Proofs.ValidateSites Proofs.ValidateWalk.
Import ListNotations.

Section Tree.
Variable V : vschema.
(* expected types of values are input types: what C12 guarantees of every schema an engine is built from *)
Hypothesis Hin : forall n ifs f, vfind_type V n = Some (DInput ifs) -> In f ifs -> input_ty V (in_type f).
Hypothesis Hfields : forall scope name f d, vfind_field V scope name = Some f -> In d (fd_args f) -> input_ty V (in_type d).
Hypothesis Hdirs : forall n dd d, vfind_directive V n = Some dd -> In d (dd_args dd) -> input_ty V (in_type d).

(* 5.6.3 inside literals *)
Lemma value_errs_exact path v : value_errs path v = [] <-> obj_fields_unique v = true.
Proof.
  induction v as [| | | | | | |l items H|l fields H] using lit_ind2; cbn [value_errs obj_fields_unique]; try (split; reflexivity).
  - induction H as [|x r Hx HF IH]; [split; reflexivity|].
    rewrite app_nil_iff, andb_true_iff, Hx, IH. reflexivity.
  - rewrite app_nil_iff, andb_true_iff.
    assert (Hsub : (fix go (xs : list (string * lit)) : list verror :=
                      match xs with [] => [] | (_, x) :: r => value_errs path x ++ go r end) fields = [] <->
                   (fix all (xs : list (string * lit)) : bool :=
                      match xs with [] => true | (_, x) :: r => obj_fields_unique x && all r end) fields = true).
    { induction H as [|[k x] r Hx HF IH]; [split; reflexivity|].
      rewrite app_nil_iff, andb_true_iff, Hx, IH. reflexivity. }
    destruct fields as [|kv r].
    + tauto.
    + rewrite uniq_errors_nodupb. tauto.
Qed.

(* arguments: 5.4.2 uniqueness + the literals they carry *)
Definition arguments_ok (args : list argument) : bool :=
  nodupb (map a_name args) && forallb (fun a => obj_fields_unique (a_value a)) args.

Lemma arguments_errs_exact path args : arguments_errs path args = [] <-> arguments_ok args = true.
Proof.
  unfold arguments_errs, arguments_ok. destruct args as [|a0 r0]; [split; reflexivity|].
  remember (a0 :: r0) as args eqn:E.    (* the list is known non-empty; forgetting its shape keeps cbn off it *)
  rewrite app_nil_iff, andb_true_iff, uniq_errors_nodupb, flat_map_nil_iff, forallb_forall.
  split; intros [A B].
  - split; [exact B|]. intros a Ha. apply (proj1 (value_errs_exact path (a_value a))). auto.
  - split; [|exact A]. intros a Ha. apply (proj2 (value_errs_exact path (a_value a))). auto.
Qed.

(* one directive: 5.7.1 defined, its arguments' rules *)
Definition defs_ok (ds : list input_def) (l_args : list argument) : bool :=
  args_ok V ds l_args &&
  forallb (fun a => existsb (fun d => String.eqb (in_name d) (a_name a)) ds) l_args &&
  forallb (fun d => negb (is_non_null (in_type d)) || match in_default d with Some _ => true | None => false end ||
                    existsb (fun a => String.eqb (a_name a) (in_name d)) l_args) ds.

Lemma defs_rules_exact path l ds args :
  (forall d, In d ds -> input_ty V (in_type d)) ->
  (vct_arguments V path (Some ds) args = Some [] /\ argument_names_errors path (Some ds) args = [] /\
   required_arguments_errors path (Some ds) l args = [] <-> defs_ok ds args = true).
Proof.
  intros Hd. unfold defs_ok. rewrite !andb_true_iff, (vct_arguments_quiet V Hin path ds args Hd), argument_names_exact, required_arguments_exact. tauto.
Qed.

Definition dir_ok (d : directive) : bool :=
  arguments_ok (dir_args d) &&
  match s_directive V (d_name d) with
  | Some dd => defs_ok (dd_args dd) (dir_args d)
  | None => false
  end.

Lemma directive_errs_exact path d : directive_errs V path d = Some [] <-> dir_ok d = true.
Proof.
  unfold directive_errs, dir_ok, s_directive. cbn [seqs].
  rewrite !seq2_quiet, !some_nil_iff, arguments_errs_exact, andb_true_iff.
  destruct (vfind_directive V (d_name d)) as [dd|] eqn:Ed.
  - rewrite <- (defs_rules_exact path (d_loc d) (dd_args dd) (dir_args d) (fun x Hx => Hdirs _ dd x Ed Hx)). tauto.
  - split.
    + intros (_ & _ & _ & _ & H & _). discriminate.
    + intros [_ H]. discriminate.
Qed.

Definition dirs_ok (ds : list directive) : bool := forallb dir_ok ds && nodupb (map d_name ds).

Lemma directives_errs_exact path ds : directives_errs V path ds = Some [] <-> dirs_ok ds = true.
Proof.
  unfold directives_errs, dirs_ok. destruct ds as [|d0 r0]; [split; reflexivity|].
  remember (d0 :: r0) as ds eqn:E.
  rewrite seq2_quiet, some_nil_iff, uniq_errors_nodupb, andb_true_iff, seqs_quiet, Forall_map, Forall_forall, forallb_forall.
  split; intros [A B].
  - split; [|exact B]. intros d Hd. apply (proj1 (directive_errs_exact path d)). auto.
  - split; [|exact B]. intros d Hd. apply (proj2 (directive_errs_exact path d)). auto.
Qed.

Definition locs_ok (where_ : string) (ds : list directive) : bool :=
  forallb (fun d => match s_directive V (d_name d) with Some dd => mem_str where_ (dd_locs dd) | None => true end) ds.

Definition field_ok (scope : option string) (name : string) (args : list argument) (dirs : list directive) (hs : bool) : bool :=
  locs_ok "FIELD" dirs &&
  (String.eqb name "__typename" || match field_reduced_type V scope name with Some _ => true | None => false end) &&
  match field_reduced_type V scope name with Some d => Bool.eqb hs (is_composite_def d) | None => true end &&
  match vfind_field V scope name with Some f => defs_ok (fd_args f) args | None => true end.

Lemma seqs_six (a b c : list verror) r (d e : list verror) :
  seqs [Some a; Some b; Some c; r; Some d; Some e] = Some [] <-> (a = [] /\ b = [] /\ c = []) /\ (r = Some [] /\ d = [] /\ e = []).
Proof. cbn [seqs]. rewrite !seq2_quiet, !some_nil_iff. tauto. Qed.

Lemma field_rules_errs_exact_at scope path l name args dirs hs :
  (forall f d, vfind_field V scope name = Some f -> In d (fd_args f) -> input_ty V (in_type d)) ->
  (field_rules_errs V scope path l name args dirs hs = Some [] <-> field_ok scope name args dirs hs = true).
Proof.
  intros Hargs. unfold field_rules_errs, field_ok, locs_ok.
  set (defs := match vfind_field V scope name with Some f => Some (fd_args f) | None => None end).
  set (ok := match vfind_field V scope name with Some f => defs_ok (fd_args f) args | None => true end).
  assert (Hdefs : vct_arguments V path defs args = Some [] /\ argument_names_errors path defs args = [] /\
                  required_arguments_errors path defs l args = [] <-> ok = true).
  { unfold ok, defs. destruct (vfind_field V scope name) as [f|]; [|now split].
    apply defs_rules_exact. intros x. now apply Hargs. }
  assert (Hr : vfind_field V scope name = None -> field_reduced_type V scope name = None)
    by (unfold field_reduced_type, field_type_name; now intros ->).
  refine (iff_trans (seqs_six _ _ _ _ _ _) _). rewrite Hdefs, valid_locations_exact. clearbody ok defs.
  destruct (field_reduced_type V scope name) as [t|]; [rewrite leaf_selection_exact|];
    destruct (String.eqb name "__typename"), (forallb _ dirs), ok; cbn; try destruct (Bool.eqb hs (is_composite_def t));
    split; intuition discriminate.   (* what is left is a finite check on booleans *)
Qed.

Lemma field_rules_errs_exact scope path l name args dirs hs :
  field_rules_errs V scope path l name args dirs hs = Some [] <-> field_ok scope name args dirs hs = true.
Proof. apply field_rules_errs_exact_at. apply Hfields. Qed.

Lemma forall_some_eq {A} (a : A) (P : A -> Prop) : (forall x, Some a = Some x -> P x) <-> P a.
Proof. split; [intros H; now apply H|intros H x [= <-]; exact H]. Qed.

(* one field node: quiet exactly when the specification's predicates hold at that site *)
Theorem field_node_quiet
  scope path l name args dirs hs :
  (forall f d, vfind_field V scope name = Some f -> In d (fd_args f) -> input_ty V (in_type d)) ->
  (field_rules_errs V scope path l name args dirs hs = Some [] <->
   forallb (fun d => match s_directive V (d_name d) with Some dd => mem_str "FIELD" (dd_locs dd) | None => true end) dirs = true /\
   (String.eqb name "__typename" = true \/ field_reduced_type V scope name <> None) /\
   (forall d, field_reduced_type V scope name = Some d -> Bool.eqb hs (is_composite_def d) = true) /\
   (forall f, vfind_field V scope name = Some f ->
      args_ok V (fd_args f) args = true /\
      forallb (fun a => existsb (fun d => String.eqb (in_name d) (a_name a)) (fd_args f)) args = true /\
      forallb (fun d => negb (is_non_null (in_type d)) || match in_default d with Some _ => true | None => false end ||
                        existsb (fun a => String.eqb (a_name a) (in_name d)) args) (fd_args f) = true)).
Proof.
  intros Hargs. rewrite (field_rules_errs_exact_at scope path l name args dirs hs Hargs).
  unfold field_ok, defs_ok.
  destruct (field_reduced_type V scope name) as [d|], (vfind_field V scope name) as [f|];
    rewrite ?forall_some_eq, !andb_true_iff, orb_true_iff; intuition (discriminate || auto).
Qed.

Definition tc_ok (tc : option string) : bool :=
  match tc with
  | Some t => match s_type V t with Some d => is_composite_def d | None => false end
  | None => true
  end.

Lemma type_condition_errs_exact path l tc : type_condition_errs V path l tc = [] <-> tc_ok tc = true.
Proof.
  unfold type_condition_errs, tc_ok, has_type, s_type. destruct tc as [t|]; [|split; reflexivity].
  destruct (vfind_type V t) as [d|]; [destruct (is_composite_def d); split; try reflexivity; discriminate|split; discriminate].
Qed.

Fixpoint sel_ok (scope : option string) (s : selection) {struct s} : bool :=
  match s with
  | SField _ _ name args dirs sels =>
      arguments_ok args && dirs_ok dirs &&
      (fix all (xs : list selection) : bool := match xs with [] => true | x :: r => sel_ok (field_type_name V scope name) x && all r end) sels &&
      field_ok scope name args dirs (match sels with [] => false | _ => true end)
  | SSpread _ _ dirs => dirs_ok dirs && locs_ok "FRAGMENT_SPREAD" dirs
  | SInline _ tc dirs sels =>
      dirs_ok dirs &&
      (fix all (xs : list selection) : bool :=
         match xs with [] => true | x :: r => sel_ok (match tc with Some t => Some t | None => scope end) x && all r end) sels &&
      locs_ok "INLINE_FRAGMENT" dirs && tc_ok tc
  end.

Definition sels_ok (scope : option string) (sels : list selection) : bool := forallb (sel_ok scope) sels.

Lemma sels_errs_exact_of scope path sels :
  Forall (fun s => forall scope path, sel_errs V scope path s = Some [] <-> sel_ok scope s = true) sels ->
  (sels_errs V scope path sels = Some [] <-> sels_ok scope sels = true).
Proof.
  induction 1 as [|x r Hx _ IH]; [split; reflexivity|].
  change (sels_errs V scope path (x :: r)) with (seq2 (sel_errs V scope path x) (sels_errs V scope path r)).
  cbn [sels_ok forallb]. now rewrite seq2_quiet, andb_true_iff, Hx, IH.
Qed.

Lemma sel_errs_exact s : forall scope path, sel_errs V scope path s = Some [] <-> sel_ok scope s = true.
Proof.
  induction s as [l alias name args dirs sels IH|l name dirs|l tc dirs sels IH] using selection_ind2; intros scope path.
  - change (sel_errs V scope path (SField l alias name args dirs sels))
      with (seq2 (Some (arguments_errs (path_push path name) args)) (seq2 (directives_errs V (path_push path name) dirs)
             (seq2 (sels_errs V (field_type_name V scope name) (path_push path name) sels)
                   (field_rules_errs V scope (path_push path name) l name args dirs (match sels with [] => false | _ => true end))))).
    change (sel_ok scope (SField l alias name args dirs sels))
      with (arguments_ok args && dirs_ok dirs && sels_ok (field_type_name V scope name) sels &&
            field_ok scope name args dirs (match sels with [] => false | _ => true end)).
    rewrite !seq2_quiet, some_nil_iff, arguments_errs_exact, directives_errs_exact, field_rules_errs_exact, !andb_true_iff,
      (sels_errs_exact_of _ _ _ IH). tauto.
  - cbn [sel_errs sel_ok]. rewrite seq2_quiet, some_nil_iff, directives_errs_exact, valid_locations_exact, andb_true_iff. reflexivity.
  - change (sel_errs V scope path (SInline l tc dirs sels))
      with (seq2 (directives_errs V path dirs) (seq2 (sels_errs V (match tc with Some t => Some t | None => scope end) path sels)
             (Some (valid_locations_errors V path "INLINE_FRAGMENT" l dirs ++ type_condition_errs V path l tc)))).
    change (sel_ok scope (SInline l tc dirs sels))
      with (dirs_ok dirs && sels_ok (match tc with Some t => Some t | None => scope end) sels && locs_ok "INLINE_FRAGMENT" dirs && tc_ok tc).
    rewrite !seq2_quiet, some_nil_iff, app_nil_iff, directives_errs_exact, valid_locations_exact, type_condition_errs_exact, !andb_true_iff,
      (sels_errs_exact_of _ _ _ IH). tauto.
Qed.

Lemma sels_errs_exact scope path sels : sels_errs V scope path sels = Some [] <-> sels_ok scope sels = true.
Proof. apply sels_errs_exact_of, Forall_forall. intros s _. apply sel_errs_exact. Qed.

Definition vardef_ok (vd : var_def) : bool :=
  match v_default vd with Some d => obj_fields_unique d | None => true end &&
  match vfind_type V (named_of (v_type vd)) with Some d => is_input_def d | None => true end.
Definition vardefs_ok (vds : list var_def) : bool := forallb vardef_ok vds && nodupb (map v_name vds).

Lemma vardefs_errs_exact vds : vardefs_errs V vds = [] <-> vardefs_ok vds = true.
Proof.
  unfold vardefs_errs, vardefs_ok. destruct vds as [|v0 r0]; [split; reflexivity|].
  remember (v0 :: r0) as vds eqn:E.
  rewrite app_nil_iff, uniq_errors_nodupb, andb_true_iff, flat_map_nil_iff, forallb_forall.
  assert (H1 : forall vd, vardef_errs V vd = [] <-> vardef_ok vd = true).
  { intros vd. unfold vardef_errs, vardef_ok. rewrite app_nil_iff, andb_true_iff.
    destruct (v_default vd) as [d|]; [rewrite value_errs_exact|];
      (destruct (vfind_type V (named_of (v_type vd))) as [td|]; [destruct (is_input_def td)|]; split; intros [A B]; auto; try discriminate). }
  split; intros [A B].
  - split; [|exact B]. intros vd Hvd. apply (proj1 (H1 vd)). auto.
  - split; [|exact B]. intros vd Hvd. apply (proj2 (H1 vd)). auto.
Qed.

Definition operation_ok (o : operation) : bool :=
  vardefs_ok (o_vars o) && dirs_ok (o_dirs o) && sels_ok (op_root V (o_kind o)) (o_sels o) &&
  locs_ok (op_loc_name (o_kind o)) (o_dirs o).

Lemma operation_errs_exact o : operation_errs V o = Some [] <-> operation_ok o = true.
Proof.
  unfold operation_errs, operation_ok.
  rewrite !seq2_quiet, !some_nil_iff, vardefs_errs_exact, directives_errs_exact, sels_errs_exact, valid_locations_exact, !andb_true_iff.
  tauto.
Qed.

Definition fragment_ok (f : fragment) : bool :=
  dirs_ok (fr_dirs f) && sels_ok (Some (fr_type f)) (fr_sels f) && locs_ok "FRAGMENT_DEFINITION" (fr_dirs f) &&
  tc_ok (Some (fr_type f)).

Lemma fragment_errs_exact f : fragment_errs V f = Some [] <-> fragment_ok f = true.
Proof.
  unfold fragment_errs, fragment_ok.
  rewrite !seq2_quiet, some_nil_iff, app_nil_iff, directives_errs_exact, sels_errs_exact, valid_locations_exact,
    type_condition_errs_exact, !andb_true_iff.
  tauto.
Qed.

Definition doc_walk_ok (doc : document) : bool :=
  forallb operation_ok (operations doc) && forallb fragment_ok (fragments doc).

Theorem walk_phase_exact doc : quiet (walk_phase_errs V doc) <-> doc_walk_ok doc = true.
Proof.
  unfold quiet, walk_phase_errs, doc_walk_ok.
  rewrite seq2_quiet, !seqs_quiet, !Forall_map, !Forall_forall, andb_true_iff, !forallb_forall.
  split; intros [H1 H2]; split; intros x Hx.
  - apply (proj1 (operation_errs_exact x)). auto.
  - apply (proj1 (fragment_errs_exact x)). auto.
  - apply (proj2 (operation_errs_exact x)). auto.
  - apply (proj2 (fragment_errs_exact x)). auto.
Qed.

(* the state the document-level rules start from is defined in both files: one term *)
Lemma walked_same doc : ValidateWalk.walked V doc = ValidateRules.walked V doc.
Proof. reflexivity. Qed.

Theorem accepted_characterised doc :
  accepted V doc = true <->
  doc_walk_ok doc = true /\
  acyclic (fragments doc) /\ r_operation_names doc = true /\ r_lone_anonymous doc = true /\
  r_fragment_names doc = true /\ r_spread_targets V doc = true /\ r_fragments_used V doc = true /\
  (* the rule functions not related to the specification's predicates here *)
  quiet (single_root_rule doc) /\
  inline_possible_errors V (inlined_in (ValidateWalk.walked V doc)) ++
    spread_possible_errors V (fragments doc) (spreaded_in (ValidateWalk.walked V doc)) = [] /\
  quiet (uses_defined_rule (ValidateWalk.walked V doc) (operations doc)) /\
  quiet (variables_used_rule (ValidateWalk.walked V doc) (operations doc)) /\
  quiet (usages_allowed_rule V (ValidateWalk.walked V doc) (operations doc)).
Proof.
  rewrite accepted_iff_clean, validate_clean_iff, walk_phase_exact.
  rewrite operation_names_rule, (lone_anonymous_exact_doc doc), fragment_names_rule.
  rewrite (spread_targets_exact V doc), (must_be_used_exact V doc).
  split.
  (* the two sides list the same twelve facts, the single-root rule at another place; only the cycle rule is not
     the same proposition, and it is exact for distinct fragment names *)
  - intros (Hwalk & Hcyc & Hops & Hlone & Hroot & Hfrags & Htargets & Hused & Hspreads & Hdef & Huse & Hallow).
    assert (Hn : NoDup (map fr_name (fragments doc))) by (apply nodupb_iff; exact Hfrags).
    repeat split; auto. apply (cycle_rule_exact _ Hn). exact Hcyc.
  - intros (Hwalk & Hcyc & Hops & Hlone & Hfrags & Htargets & Hused & Hroot & Hspreads & Hdef & Huse & Hallow).
    assert (Hn : NoDup (map fr_name (fragments doc))) by (apply nodupb_iff; exact Hfrags).
    repeat split; auto. apply (cycle_rule_exact _ Hn). exact Hcyc.
Qed.

End Tree.
