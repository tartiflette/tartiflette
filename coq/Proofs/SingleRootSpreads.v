(* single-root-field through fragment SPREADS: the engine's traversal (response_keys, with its visited set) collects
   EVERY response key reachable from a selection set through inline fragments and any chain of fragment spreads
   (cyclic spread graphs included: the visited set makes it terminate), so the rule is exact:
   it reports an operation exactly when two different root response keys are reachable. *)
From Coq Require Import List String Bool.
From TV Require Import Model.Schema Model.ImplValidate Proofs.ListFacts Proofs.ValidateWalk Proofs.SingleRoot.
Import ListNotations.

Section Complete.
Variable frs : list fragment.

(* a fragment already dealt with: its own keys collected, its spreads visited *)
Definition closed_node (v' k' : list string) (m : string) : Prop :=
  forall f, find_fragment frs m = Some f ->
    (forall k, In k (inline_keys (fr_sels f)) -> In k k') /\ (forall m', In m' (inline_spreads (fr_sels f)) -> In m' v').

Definition dfs_inv (sels : list selection) (visited keys v' k' : list string) : Prop :=
  (forall m, In m visited -> In m v') /\ (forall k, In k keys -> In k k') /\
  (forall k, In k (inline_keys sels) -> In k k') /\
  (forall n, In n (inline_spreads sels) -> In n v') /\
  (forall m, In m v' -> ~ In m visited -> closed_node v' k' m).

Lemma closed_mono v1 k1 v2 k2 m : (forall x, In x v1 -> In x v2) -> (forall x, In x k1 -> In x k2) -> closed_node v1 k1 m -> closed_node v2 k2 m.
Proof. intros Hv Hk H f Hf. destruct (H f Hf) as [A B]. auto. Qed.

(* the five parts of dfs_inv *)
Ltac inv5 := unfold dfs_inv; split; [|split; [|split; [|split]]].

Lemma response_keys_dfs : forall fuel sels visited keys v' k',
  response_keys fuel frs sels visited keys = Some (v', k') -> dfs_inv sels visited keys v' k'.
Proof.
  (* whatever is in v' and was not in `visited` is closed (its keys in k', its spreads in v'): a spread of an
     unvisited fragment closes it through the recursive call, and closedness survives growing v' and k'
     (closed_mono) *)
  induction fuel as [|fuel IH]; intros sels visited keys v' k' H; [discriminate|].
  cbn [response_keys] in H. revert visited keys H.
  induction sels as [|s sels IHs]; intros visited keys H.
  - injection H as <- <-. inv5; auto; try (intros x []). contradiction.
  - destruct s as [l alias name args ds sub|l n ds|l tc ds sub].
    + destruct (IHs visited (if mem_str (fkey alias name) keys then keys else fkey alias name :: keys) H) as (A & B & C & D & E).
      inv5.
      * exact A.
      * intros k Hk. apply B. destruct (mem_str (fkey alias name) keys); [exact Hk|now right].
      * intros k Hk. destruct Hk as [<-|Hk]; [|now apply C].
        apply B. destruct (mem_str (fkey alias name) keys) eqn:Em; [now apply mem_str_iff|now left].
      * exact D.
      * exact E.
    + destruct (mem_str n visited) eqn:Ev.
      * destruct (IHs visited keys H) as (A & B & C & D & E). inv5; auto.
        intros m [<-|Hm]; [apply A; now apply mem_str_iff|now apply D].
      * destruct (find_fragment frs n) as [f|] eqn:Hf.
        -- destruct (response_keys fuel frs (fr_sels f) (n :: visited) keys) as [[v1 k1]|] eqn:H1; [|discriminate].
           destruct (IH _ _ _ _ _ H1) as (A1 & B1 & C1 & D1 & E1).
           destruct (IHs v1 k1 H) as (A & B & C & D & E). inv5.
           ++ intros m Hm. apply A, A1. now right.
           ++ intros k Hk. apply B, B1, Hk.
           ++ exact C.
           ++ intros m [<-|Hm]; [apply A, A1; now left|now apply D].
           ++ intros m Hm Hnm. destruct (in_dec string_dec m v1) as [Hm1|Hm1].
              ** apply (closed_mono v1 k1 v' k' m A B).
                 destruct (string_dec m n) as [->|Hne].
                 --- intros f' Hf'. rewrite Hf in Hf'. injection Hf' as <-. split; [exact C1|exact D1].
                 --- apply E1; [exact Hm1|]. intros [Heq|Hin]; [now apply Hne|now apply Hnm].
              ** now apply E.
        -- destruct (IHs (n :: visited) keys H) as (A & B & C & D & E). inv5.
           ++ intros m Hm. apply A. now right.
           ++ exact B.
           ++ exact C.
           ++ intros m [<-|Hm]; [apply A; now left|now apply D].
           ++ intros m Hm Hnm. destruct (string_dec m n) as [->|Hne]; [congruence|].
              apply E; [exact Hm|]. intros [Heq|Hin]; [now apply Hne|now apply Hnm].
    + destruct (response_keys fuel frs sub visited keys) as [[v1 k1]|] eqn:H1; [|discriminate].
      destruct (IH _ _ _ _ _ H1) as (A1 & B1 & C1 & D1 & E1).
      destruct (IHs v1 k1 H) as (A & B & C & D & E). inv5.
      * intros m Hm. apply A, A1, Hm.
      * intros k Hk. apply B, B1, Hk.
      * intros k Hk. apply in_app_or in Hk. destruct Hk as [Hk|Hk]; [|now apply C].
        apply B, C1, Hk.
      * intros m Hm. apply in_app_or in Hm. destruct Hm as [Hm|Hm]; [|now apply D].
        apply A, D1, Hm.
      * intros m Hm Hnm. destruct (in_dec string_dec m v1) as [Hm1|Hm1].
        -- apply (closed_mono v1 k1 v' k' m A B). now apply E1.
        -- now apply E.
Qed.

(* from the empty visited set: every reachable fragment is visited and closed, so every reachable key is collected *)
Theorem response_keys_complete fuel sels v' k' :
  response_keys fuel frs sels [] [] = Some (v', k') -> forall k, reachable_key frs sels k -> In k k'.
Proof.
  intros H. destruct (response_keys_dfs _ _ _ _ _ _ H) as (_ & _ & C & D & E).
  assert (Hclosed : forall m, In m v' -> closed_node v' k' m) by (intros m Hm; apply E; [exact Hm|intros []]).
  assert (Hreach : forall sels0 f, reach frs sels0 f -> (forall n, In n (inline_spreads sels0) -> In n v') ->
                     exists m, In m v' /\ find_fragment frs m = Some f).
  { intros sels0 f Hr. induction Hr as [sels1 n f Hn Hf|sels1 g f Hg IHg Hf IHf]; intros Hsp.
    - exists n. split; [now apply Hsp|exact Hf].
    - destruct (IHg Hsp) as (mg & Hmg & Hfg). apply IHf. exact (proj2 (Hclosed mg Hmg g Hfg)). }
  intros k [Hk|(f & Hr & Hk)]; [now apply C|].
  destruct (Hreach sels f Hr D) as (m & Hm & Hf). exact (proj1 (Hclosed m Hm f Hf) k Hk).
Qed.
End Complete.

Definition two_reachable_keys (frs : list fragment) (sels : list selection) : Prop :=
  exists k1 k2, k1 <> k2 /\ reachable_key frs sels k1 /\ reachable_key frs sels k2.

Lemma reach_from_spread frs l n ds f g : find_fragment frs n = Some f -> reach frs [SSpread l n ds] g -> g = f \/ reach frs (fr_sels f) g.
Proof.
  intros Hf Hr. remember [SSpread l n ds] as s0. induction Hr as [sels0 m g Hm Hg|sels0 h g Hh IHh Hg IHg]; subst sels0.
  - destruct Hm as [<-|[]]. left. congruence.
  - destruct (IHh eq_refl) as [->|Hh']; [right; exact Hg|right; eapply reach_step; eauto].
Qed.

Lemma reachable_key_from_spread frs l n ds f k :
  find_fragment frs n = Some f -> reachable_key frs [SSpread l n ds] k -> reachable_key frs (fr_sels f) k.
Proof.
  intros Hf [Hk|(g & Hr & Hk)]; [contradiction|].
  destruct (reach_from_spread frs l n ds f g Hf Hr) as [->|Hr']; [now left|right; eauto].
Qed.

Lemma reachable_key_from_inline frs l tc ds sub k : reachable_key frs [SInline l tc ds sub] k -> reachable_key frs sub k.
Proof. apply reachable_key_incl; [rewrite inline_keys_one|rewrite inline_spreads_one]; apply incl_refl. Qed.

Lemma reach_first frs sels f : reach frs sels f -> exists n g, In n (inline_spreads sels) /\ find_fragment frs n = Some g.
Proof. induction 1 as [sels n f Hn Hf|sels g f _ IH _ _]; [now exists n, f|exact IH]. Qed.

Theorem single_root_refuses_reachable doc oloc : forall fuel sels errs,
  single_root_sels fuel doc oloc sels = Some errs -> two_reachable_keys (fragments doc) sels -> errs <> [].
Proof.
  induction fuel as [|fuel IH]; intros sels errs H (k1 & k2 & Hne & H1 & H2); [discriminate|].
  destruct sels as [|s [|s2 r]]; [cbn [single_root_sels] in H..|].
  - destruct H1 as [[]|(f & Hr & _)]. now destruct (reach_first _ _ _ Hr) as (m & g & [] & _).
  - destruct s as [l alias name args ds sub|l n ds|l tc ds sub].
    + assert (Hone : forall k, reachable_key (fragments doc) [SField l alias name args ds sub] k -> k = fkey alias name).
      { intros k [Hk|(f & Hr & _)]; [destruct Hk as [<-|[]]; reflexivity|].
        now destruct (reach_first _ _ _ Hr) as (m & g & [] & _). }
      rewrite (Hone k1 H1), (Hone k2 H2) in Hne. now elim Hne.
    + destruct (find_fragment (fragments doc) n) as [f|] eqn:Hf.
      * apply (IH (fr_sels f) errs H). exists k1, k2. split; [exact Hne|]. split; eapply reachable_key_from_spread; eauto.
      * (* undefined target: nothing reachable *)
        destruct H1 as [[]|(g & Hr & _)]. destruct (reach_first _ _ _ Hr) as (m & g' & [<-|[]] & Hg). congruence.
    + apply (IH sub errs H). exists k1, k2. split; [exact Hne|]. split; eapply reachable_key_from_inline; eauto.
  - rewrite single_root_sels_many in H.
    destruct (response_keys _ _ (s :: s2 :: r) [] []) as [[v' keys]|] eqn:Hk; [|discriminate].
    pose proof (response_keys_complete (fragments doc) _ _ _ _ Hk) as Hc.
    rewrite (two_distinct_length keys k1 k2 Hne (Hc k1 H1) (Hc k2 H2)) in H. injection H as <-. discriminate.
Qed.

Theorem single_root_rule_refuses_reachable doc o :
  In o (operations doc) -> o_kind o = OpSubscription -> two_reachable_keys (fragments doc) (o_sels o) ->
  single_root_rule doc <> Some [].
Proof.
  intros Hin Hk Htwo H. rewrite single_root_rule_seqs, seqs_map_quiet in H. specialize (H o Hin).
  unfold sr_one in H. rewrite Hk in H. exact (single_root_refuses_reachable doc (o_loc o) _ _ _ H Htwo eq_refl).
Qed.

(* in particular when the two keys are written at the root, through fields and inline fragments *)
Lemma two_root_two_reachable frs sels : two_root_keys sels -> two_reachable_keys frs sels.
Proof. intros (k1 & k2 & Hne & H1 & H2). exists k1, k2. repeat split; [exact Hne|now left|now left]. Qed.

Theorem single_root_rule_refuses doc o :
  In o (operations doc) -> o_kind o = OpSubscription -> two_root_keys (o_sels o) ->
  single_root_rule doc <> Some [].
Proof. intros Hin Hk Htwo. exact (single_root_rule_refuses_reachable doc o Hin Hk (two_root_two_reachable _ _ Htwo)). Qed.

Theorem two_reachable_keys_refused V doc o :
  In o (operations doc) -> o_kind o = OpSubscription -> two_reachable_keys (fragments doc) (o_sels o) -> accepted V doc = false.
Proof.
  intros Hin Hk Htwo. apply not_true_is_false. intros E.
  exact (single_root_rule_refuses_reachable doc o Hin Hk Htwo (accepted_single_root V doc E)).
Qed.
