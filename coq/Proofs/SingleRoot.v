(* The single-root-field rule (5.2.3.1) as the engine implements it (Model/ImplValidate.v
   response_keys / single_root_sels / single_root_rule):
   what it collects is reachable, without duplicates, so a subscription whose every reachable root
   field -- through inline fragments and fragment spreads, however often written -- has the same
   response key is not reported when the rule answers.  Proofs/SingleRootSpreads.v has the converse. *)
From Coq Require Import ZArith List String Lia.
From TV Require Import Model.Schema Model.ImplValidate Proofs.ListFacts Proofs.ValidateWalk.
Import ListNotations.

Open Scope list_scope.

Definition fkey (alias : option string) (name : string) : string := match alias with Some a => a | None => name end.

(* response keys / spread names reachable through inline fragments only *)
Fixpoint inline_keys_s (s : selection) : list string :=
  match s with
  | SField _ alias name _ _ _ => [fkey alias name]
  | SSpread _ _ _ => []
  | SInline _ _ _ sub => (fix go (xs : list selection) := match xs with [] => [] | x :: r => inline_keys_s x ++ go r end) sub
  end.
Definition inline_keys (sels : list selection) : list string := flat_map inline_keys_s sels.

Fixpoint inline_spreads_s (s : selection) : list string :=
  match s with
  | SField _ _ _ _ _ _ => []
  | SSpread _ n _ => [n]
  | SInline _ _ _ sub => (fix go (xs : list selection) := match xs with [] => [] | x :: r => inline_spreads_s x ++ go r end) sub
  end.
Definition inline_spreads (sels : list selection) : list string := flat_map inline_spreads_s sels.

(* not Model.SpecValidate.reach (a fuelled traversal of the same name): where both are imported, qualify *)
Inductive reach (frs : list fragment) : list selection -> fragment -> Prop :=
| reach_direct sels n f : In n (inline_spreads sels) -> find_fragment frs n = Some f -> reach frs sels f
| reach_step sels g f : reach frs sels g -> reach frs (fr_sels g) f -> reach frs sels f.

Definition reachable_key (frs : list fragment) (sels : list selection) (k : string) : Prop :=
  In k (inline_keys sels) \/ exists f, reach frs sels f /\ In k (inline_keys (fr_sels f)).

Lemma inline_spreads_app a b : inline_spreads (a ++ b) = inline_spreads a ++ inline_spreads b.
Proof. apply flat_map_app. Qed.
Lemma inline_keys_app a b : inline_keys (a ++ b) = inline_keys a ++ inline_keys b.
Proof. apply flat_map_app. Qed.

(* reach / reachable_key only look at the spreads / keys the selection set shows outside its fragments *)
Lemma reach_incl frs a b f : incl (inline_spreads a) (inline_spreads b) -> reach frs a f -> reach frs b f.
Proof.
  intros Hi. induction 1 as [sels0 n f Hin Hf|sels0 g f Hg IHg Hf _].
  - eapply reach_direct; [apply Hi, Hin|exact Hf].
  - eapply reach_step; [exact (IHg Hi)|exact Hf].
Qed.
Lemma reachable_key_incl frs a b k :
  incl (inline_keys a) (inline_keys b) -> incl (inline_spreads a) (inline_spreads b) ->
  reachable_key frs a k -> reachable_key frs b k.
Proof. intros Hk Hs [H|(f & Hr & H)]; [left; now apply Hk|right; exists f; split; [now apply (reach_incl frs a b)|exact H]]. Qed.

Lemma inline_spreads_one s : inline_spreads [s] = inline_spreads_s s.
Proof. apply app_nil_r. Qed.
Lemma inline_keys_one s : inline_keys [s] = inline_keys_s s.
Proof. apply app_nil_r. Qed.

Lemma reachable_key_cons_l frs s sels k : reachable_key frs [s] k -> reachable_key frs (s :: sels) k.
Proof. apply (reachable_key_incl frs [s] ([s] ++ sels)); [rewrite inline_keys_app|rewrite inline_spreads_app]; now apply incl_appl. Qed.
Lemma reachable_key_cons_r frs s sels k : reachable_key frs sels k -> reachable_key frs (s :: sels) k.
Proof. apply (reachable_key_incl frs sels ([s] ++ sels)); now apply incl_appr. Qed.
Lemma reachable_key_inline frs l tc ds sub k : reachable_key frs sub k -> reachable_key frs [SInline l tc ds sub] k.
Proof. apply reachable_key_incl; [rewrite inline_keys_one|rewrite inline_spreads_one]; apply incl_refl. Qed.

Lemma reachable_key_spread frs l n ds f k :
  find_fragment frs n = Some f -> reachable_key frs (fr_sels f) k -> reachable_key frs [SSpread l n ds] k.
Proof.
  intros Hf H. assert (Hrf : reach frs [SSpread l n ds] f) by (eapply reach_direct; [|exact Hf]; now left).
  destruct H as [H|[g [Hr Hk]]]; right.
  - exists f. split; [exact Hrf|exact H].
  - exists g. split; [eapply reach_step; eauto|exact Hk].
Qed.

Lemma response_keys_facts frs : forall fuel sels visited keys v' k',
  response_keys fuel frs sels visited keys = Some (v', k') ->
  (forall k, In k k' -> In k keys \/ reachable_key frs sels k) /\ (NoDup keys -> NoDup k').
Proof.
  induction fuel as [|fuel IH]; intros sels visited keys v' k' H; [discriminate|].
  cbn [response_keys] in H. revert visited keys H.
  induction sels as [|s sels IHs]; intros visited keys H.
  - injection H as <- <-. auto.
  - destruct s as [l alias name args ds sub|l n ds|l tc ds sub].
    + destruct (IHs visited (if mem_str (fkey alias name) keys then keys else fkey alias name :: keys) H) as [Hs Hn]. split.
      * intros k Hk. destruct (Hs k Hk) as [Hin|Hr]; [|right; now apply reachable_key_cons_r].
        destruct (mem_str (fkey alias name) keys); [now left|]. destruct Hin as [<-|Hin]; [|now left].
        right. left. now left.
      * intros Hnd. apply Hn. destruct (mem_str (fkey alias name) keys) eqn:E; [exact Hnd|].
        constructor; [|exact Hnd]. intros Hin. apply mem_str_iff in Hin. congruence.
    + destruct (mem_str n visited).
      * destruct (IHs visited keys H) as [Hs Hn]. split; [|exact Hn].
        intros k Hk. destruct (Hs k Hk); [now left|right; now apply reachable_key_cons_r].
      * destruct (find_fragment frs n) as [f|] eqn:Hf.
        -- destruct (response_keys fuel frs (fr_sels f) (n :: visited) keys) as [[v1 k1]|] eqn:H1; [|discriminate].
           destruct (IH _ _ _ _ _ H1) as [Hs1 Hn1]. destruct (IHs v1 k1 H) as [Hs Hn]. split; [|auto].
           intros k Hk. destruct (Hs k Hk) as [Hin|Hr]; [|right; now apply reachable_key_cons_r].
           destruct (Hs1 k Hin) as [Hin'|Hr]; [now left|]. right. apply reachable_key_cons_l.
           now apply (reachable_key_spread frs l n ds f).
        -- destruct (IHs (n :: visited) keys H) as [Hs Hn]. split; [|exact Hn].
           intros k Hk. destruct (Hs k Hk); [now left|right; now apply reachable_key_cons_r].
    + destruct (response_keys fuel frs sub visited keys) as [[v1 k1]|] eqn:H1; [|discriminate].
      destruct (IH _ _ _ _ _ H1) as [Hs1 Hn1]. destruct (IHs v1 k1 H) as [Hs Hn]. split; [|auto].
      intros k Hk. destruct (Hs k Hk) as [Hin|Hr]; [|right; now apply reachable_key_cons_r].
      destruct (Hs1 k Hin) as [Hin'|Hr]; [now left|]. right. now apply reachable_key_cons_l, reachable_key_inline.
Qed.

Lemma two_distinct_length (l : list string) k1 k2 : k1 <> k2 -> In k1 l -> In k2 l -> (1 <? List.length l)%nat = true.
Proof.
  intros Hne H1 H2. apply Nat.ltb_lt. destruct l as [|a [|b r]]; cbn [List.length]; try lia; [contradiction|].
  destruct H1 as [<-|[]]. destruct H2 as [<-|[]]. congruence.
Qed.

Lemma all_equal_nodup_length (l : list string) k0 : NoDup l -> (forall k, In k l -> k = k0) -> (1 <? List.length l)%nat = false.
Proof.
  intros Hnd Hall. apply Nat.ltb_ge. destruct l as [|a [|b r]]; cbn [List.length]; try lia.
  exfalso. inversion Hnd as [|? ? Hni _]. apply Hni. left.
  rewrite (Hall a (or_introl eq_refl)), (Hall b (or_intror (or_introl eq_refl))). reflexivity.
Qed.

Definition two_root_keys (sels : list selection) : Prop :=
  exists k1 k2, k1 <> k2 /\ In k1 (inline_keys sels) /\ In k2 (inline_keys sels).

(* two or more selections at the root: the response keys are collected and counted *)
Lemma single_root_sels_many fuel doc oloc s s2 r :
  single_root_sels (S fuel) doc oloc (s :: s2 :: r) =
  match response_keys (single_root_fuel doc) (fragments doc) (s :: s2 :: r) [] [] with
  | Some (_, keys) => Some (if (1 <? List.length keys)%nat then [mkerr "single-root-field" None [oloc]] else [])
  | None => None
  end.
Proof. destruct s; reflexivity. Qed.

Theorem single_root_accepts doc oloc k0 : forall fuel sels errs,
  single_root_sels fuel doc oloc sels = Some errs ->
  (forall k, reachable_key (fragments doc) sels k -> k = k0) -> errs = [].
Proof.
  induction fuel as [|fuel IH]; intros sels errs H Hall; [discriminate|].
  destruct sels as [|s [|s2 r]].
  - now injection H as <-.
  - cbn [single_root_sels] in H. destruct s as [l alias name args ds sub|l n ds|l tc ds sub].
    + now injection H as <-.
    + destruct (find_fragment (fragments doc) n) as [f|] eqn:Hf; [|now injection H as <-].
      apply (IH (fr_sels f) errs H). intros k Hk. apply Hall. now apply (reachable_key_spread _ l n ds f k Hf).
    + apply (IH sub errs H). intros k Hk. apply Hall. now apply reachable_key_inline.
  - rewrite single_root_sels_many in H.
    destruct (response_keys _ _ (s :: s2 :: r) [] []) as [[v' keys]|] eqn:Hk; [|discriminate].
    destruct (response_keys_facts _ _ _ _ _ _ _ Hk) as [Hs Hn].
    rewrite (all_equal_nodup_length keys k0 (Hn (NoDup_nil _))) in H; [now injection H as <-|].
    intros k Hin. destruct (Hs k Hin) as [[]|Hr]. now apply Hall.
Qed.

(* the rule on the document: the outcomes of the subscriptions in sequence *)
Definition sr_one (doc : document) (o : operation) : option (list verror) :=
  match o_kind o with
  | OpSubscription => single_root_sels (single_root_fuel doc) doc (o_loc o) (o_sels o)
  | _ => Some []
  end.

Lemma single_root_rule_seqs doc : single_root_rule doc = seqs (map (sr_one doc) (operations doc)).
Proof.
  apply fold_seqs. intros acc o. unfold sr_one.
  destruct acc as [es|], (o_kind o); cbn; try reflexivity; try (now rewrite app_nil_r).
Qed.

(* a document whose subscriptions each reach ONE response key at the root -- however often it is written,
   through inline fragments and fragment spreads -- is not reported by the rule when it answers *)
Theorem single_root_rule_accepts doc errs :
  (forall o, In o (operations doc) -> o_kind o = OpSubscription ->
             exists k0, forall k, reachable_key (fragments doc) (o_sels o) k -> k = k0) ->
  single_root_rule doc = Some errs -> errs = [].
Proof.
  rewrite single_root_rule_seqs. intros Hall H. apply (seqs_all_nil _ _ H).
  intros e He. apply in_map_iff in He. destruct He as (o & Ho & Hin). unfold sr_one in Ho.
  destruct (o_kind o) eqn:Hk; try (now injection Ho as <-).
  destruct (Hall o Hin Hk) as [k0 Hk0]. exact (single_root_accepts doc (o_loc o) k0 _ _ _ Ho Hk0).
Qed.
