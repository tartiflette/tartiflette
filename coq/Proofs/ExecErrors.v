(* C02: error accounting of the implementation model.
   - errors is append-only;
   - every error recorded while a field at response path p is resolved/completed has a
     path extending p (list indices included), and every exception it raises is located
     below p;  raised exception lists are never empty;
   - a field of nullable type never raises (the failure is contained: null + >= 1 error);
     a failed field of non-null type raises, recording nothing yet. *)
From Coq Require Import List.
From TV Require Import Py.Prelude Model.Schema Model.ImplInput Model.ImplExec Proofs.ExecShape Proofs.ExecEffects.
Import ListNotations.

Open Scope list_scope.

Definition extends (p q : list pkey) : Prop := exists suffix, q = p ++ suffix.

Lemma extends_refl p : extends p p.
Proof. exists []. now rewrite app_nil_r. Qed.
Lemma extends_trans p q r : extends p q -> extends q r -> extends p r.
Proof. intros [a ->] [b ->]. exists (a ++ b). now rewrite app_assoc. Qed.
Lemma extends_app p a : extends p (p ++ a).
Proof. now exists a. Qed.

Definition err_below (p : list pkey) (g : gerr) : Prop :=
  exists q, g_path g = Some q /\ extends p q.
(* a travelling exception: not yet located, or located at or below p *)
Definition exn_below (p : list pkey) (e : perr) : Prop :=
  match p_path e with Some q => extends p q | None => True end.
Definition exn_located_below (p : list pkey) (e : perr) : Prop :=
  exists q, p_path e = Some q /\ extends p q.

Definition grows_below (p : list pkey) (s s' : st) : Prop :=
  exists new, s_errors s' = s_errors s ++ new /\ Forall (err_below p) new.

(* grows_below p is `appends (err_below p)` *)
Lemma grows_refl p s : grows_below p s s.
Proof. exact (appends_refl _ s). Qed.
Lemma grows_trans p s1 s2 s3 : grows_below p s1 s2 -> grows_below p s2 s3 -> grows_below p s1 s3.
Proof. exact (appends_trans _ s1 s2 s3). Qed.
Lemma err_below_weaken p q g : extends p q -> err_below q g -> err_below p g.
Proof. intros Hpq (r & Hr & Hqr). exists r. split; [exact Hr|]. eapply extends_trans; eauto. Qed.
Lemma grows_weaken p q s s' : extends p q -> grows_below q s s' -> grows_below p s s'.
Proof. intros Hpq. apply appends_impl. intros g. now apply err_below_weaken. Qed.
Lemma grows_add_call p c s : grows_below p s (add_call c s).
Proof. exact (appends_add_call _ c s). Qed.

Lemma exn_below_weaken p q e : extends p q -> exn_below q e -> exn_below p e.
Proof. unfold exn_below. destruct (p_path e); auto. eapply extends_trans; eauto. Qed.

Definition ok_at {A} (p : list pkey) (located : bool) (m : M A) : Prop :=
  forall s r s', m s = (r, s') ->
    grows_below p s s' /\
    match r with
    | OExc l => l <> [] /\ Forall (if located then exn_located_below p else exn_below p) l
    | _ => True
    end.

(* ok_at is the general invariant of Proofs/ExecEffects.v at these two predicates *)
Definition raised (located : bool) (p : list pkey) (l : list perr) : Prop :=
  l <> [] /\ Forall (if located then exn_located_below p else exn_below p) l.

Lemma located_is_below p e : exn_located_below p e -> exn_below p e.
Proof. intros (q & Hq & He). unfold exn_below. now rewrite Hq. Qed.

Lemma locate_located nodes path e : exn_below path e -> exn_located_below path (locate nodes path e).
Proof.
  unfold exn_below, locate.
  destruct (p_path e) as [q|]; [exists q; auto|exists path; split; [reflexivity|apply extends_refl]].
Qed.

Lemma raised_app b p l l' : raised b p l -> raised b p l' -> raised b p (l ++ l').
Proof. intros [Hn H] [_ H']. split; [destruct l; [congruence|discriminate]|apply Forall_app; auto]. Qed.

Lemma raised_down p a l : raised true (p ++ [a]) l -> raised true p l.
Proof.
  intros [Hn H]. split; [exact Hn|]. eapply Forall_impl; [|exact H]. intros e (q & Hq & He). exists q. split; [exact Hq|].
  eapply extends_trans; [apply extends_app|exact He].
Qed.

Lemma raised_unlocate p l : raised true p l -> raised false p l.
Proof. intros [Hn H]. split; [exact Hn|]. eapply Forall_impl; [|exact H]. apply located_is_below. Qed.

Lemma raised_pathless p l : l <> [] -> Forall (fun e => p_path e = None) l -> raised false p l.
Proof. intros Hn H. split; [exact Hn|]. eapply Forall_impl; [|exact H]. intros e He. unfold exn_below. now rewrite He. Qed.

(* `True ->`: the side condition N on the field nodes is trivial in this instance *)
Lemma raised_fresh (nodes : list fnode) p l : True -> fresh_exn nodes l -> raised false p l.
Proof. intros _ (e & -> & He & _). apply raised_pathless; [discriminate|now constructor]. Qed.

Lemma raised_catch (nodes : list fnode) p l : True -> raised false p l ->
  raised true p (map (locate (locs_of nodes) p) l) /\
  forall s, grows_below p s (add_errors (map (locate (locs_of nodes) p) l) s).
Proof.
  intros _ [Hn H].
  assert (Hloc : Forall (exn_located_below p) (map (locate (locs_of nodes) p) l))
    by (apply Forall_map; eapply Forall_impl; [|exact H]; apply locate_located).
  split; [split; [destruct l; [congruence|discriminate]|exact Hloc]|].
  eexists. split; [reflexivity|]. apply Forall_map. eapply Forall_impl; [|exact Hloc].
  intros e (q & Hq & He). exists q. auto.
Qed.

Lemma grows_down p a s s' : grows_below (p ++ [a]) s s' -> grows_below p s s'.
Proof. apply grows_weaken, extends_app. Qed.

Lemma errors_closed : closed grows_below raised (fun _ => True).
Proof.
  constructor; [exact grows_refl|exact grows_trans|exact grows_down|exact grows_add_call|exact raised_app|exact raised_down
               |exact raised_unlocate|exact raised_fresh|exact raised_catch].
Qed.

(* in the shape the closure asks for: the premise on the field nodes is True here *)
Lemma raised_resolved sch vs U ptype source p fd node (rest : list fnode) l :
  True -> fst (resolved sch vs U ptype source p fd node) = OExc l -> raised false p l.
Proof. intros _ H. now apply raised_pathless; apply (resolved_unlocated _ _ _ _ _ _ _ _ _ H). Qed.

Section Errors.
Variable sch : schema.
Variable doc : document.
Variable vs : vars.
Variable U : usercode.
Variable cfg : config.

Definition rf_err_ok (rf : rfun) : Prop :=
  forall otype value opath k ns, ok_at (opath ++ [KName k]) true (rf otype value opath k ns).

Lemma exec_fields_conc_ok rf otype value opath :
  rf_err_ok rf -> forall sub, ok_at opath true (exec_fields_conc (fun k ns => rf otype value opath k ns) sub).
Proof.
  intros Hrf sub. apply (eff_conc _ _ _ errors_closed). intros k ns _. apply (eff_down _ _ _ errors_closed opath (KName k)), Hrf.
Qed.

(* Every error recorded while the field at path p is resolved and completed is located at or
   below p; every exception it raises is non-empty and located at or below p. *)
Theorem resolve_field_err_ok fuel : rf_err_ok (resolve_field sch doc vs U cfg fuel).
Proof.
  intros otype value opath k ns.
  apply (eff_resolve_field _ _ _ errors_closed sch doc vs U cfg); [trivial|exact (raised_resolved sch vs U)|exact I].
Qed.

Lemma run_operation_ok op rt root fs : ok_at [] true (run_operation sch doc vs U cfg op rt root fs).
Proof. apply (eff_run_operation _ _ _ errors_closed); [trivial|exact (raised_resolved sch vs U)|trivial]. Qed.

(* containment: complete_field is `lift Some` of a catch, and at a nullable type the catch absorbs *)
Lemma catch_nullable nodes p t (m : M pyval) s r s' :
  is_non_null t = false -> catch nodes p t m s = (r, s') -> forall l, r <> OExc l.
Proof.
  intros Hn. unfold catch, andthen. destruct (m s) as [[v|l|e] s1]; [|rewrite handle_field_error_eq, Hn|];
    intros H l0; inversion H; discriminate.
Qed.

Theorem nullable_field_contains rf ptype fd nodes path raw s r s' :
  is_non_null (fd_type fd) = false ->
  complete_field sch doc vs U cfg rf ptype fd nodes path raw s = (r, s') ->
  forall l, r <> OExc l.
Proof.
  intros Hn. rewrite complete_field_eq. unfold andthen at 1.
  destruct (catch _ _ _ _ s) as [x s1] eqn:Ec. pose proof (catch_nullable _ _ _ _ _ _ _ Hn Ec) as Hx.
  destruct x as [v|l0|e]; [|destruct (Hx l0 eq_refl)|]; intros H l; inversion H; discriminate.
Qed.

Theorem failed_nullable_field_is_null_with_error rf ptype fd nodes path l s r s' :
  is_non_null (fd_type fd) = false -> l <> [] ->
  complete_field sch doc vs U cfg rf ptype fd nodes path (OExc l) s = (r, s') ->
  r = OVal (Some PNone) /\ exists e es, s_errors s' = s_errors s ++ e :: es.
Proof.
  intros Hn Hne. rewrite complete_field_eq. unfold catch, andthen, ret. rewrite handle_field_error_eq, Hn.
  intros H; inversion H. split; [reflexivity|]. destruct l as [|e l]; [congruence|]. cbn. eauto.
Qed.

Theorem failed_non_null_field_raises rf ptype fd nodes path l s r s' :
  is_non_null (fd_type fd) = true ->
  complete_field sch doc vs U cfg rf ptype fd nodes path (OExc l) s = (r, s') ->
  exists l', r = OExc l' /\ s' = s.
Proof.
  intros Hn. rewrite complete_field_eq. unfold catch, andthen, ret. rewrite handle_field_error_eq, Hn.
  intros H; inversion H. eauto.
Qed.

(* execute never lets an exception escape: the outcome is a response (or the model ran out of
   fuel / met an ill-formed schema) *)
Theorem execute_operation_never_raises op root l :
  execute_operation sch doc vs U cfg op root <> OExc l.
Proof.
  rewrite execute_operation_eq. destruct (root_type_of sch (o_kind op)) as [rt|]; [|discriminate].
  destruct (collect_fields sch doc vs COLLECT_FUEL rt (o_sels op) [] []) as [[fs v]|]; [|discriminate].
  destruct (run_operation _ _ _ _ _ _ _ _ _ st0) as [[kv|lx|e] s1]; discriminate.
Qed.

(* data: null never comes without an error *)
Theorem root_failure_nulls_data op root r :
  execute_operation sch doc vs U cfg op root = OVal r -> r_data r = PNone -> r_errors r <> [].
Proof.
  rewrite execute_operation_eq. destruct (root_type_of sch (o_kind op)) as [rt|]; [|discriminate].
  destruct (collect_fields sch doc vs COLLECT_FUEL rt (o_sels op) [] []) as [[fs v]|]; [|discriminate].
  destruct (run_operation _ _ _ _ _ _ _ _ _ st0) as [[kv|l|e] s] eqn:E; intros H; inversion H.
  - discriminate.
  - destruct (run_operation_ok _ _ _ _ _ _ _ E) as [_ [Hne _]].
    destruct l; [congruence|]. destruct (s_errors s); discriminate.
Qed.

End Errors.
