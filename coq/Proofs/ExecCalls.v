(* C01 / C08: no resolver is called twice for the same response path.  For every schema, document,
   variables, user code, configuration (per-field settings included), operation and root value: the
   resolver invocations the implementation model logs are at pairwise different response paths
   ("each resolver is called exactly once per collected response key and parent object": at most
   once here; that the data is the specification's is C01_data_refines_spec). *)
From Coq Require Import ZArith List String Lia.
From TV Require Import Py.Prelude Model.Schema Model.ImplInput Model.ImplExec Model.SpecExec
     Proofs.CollectRefine Proofs.ExecShape Proofs.MixedFields.
Import ListNotations.

Open Scope list_scope.

Section Calls.
Variable sch : schema.
Variable doc : document.
Variable vs : vars.
Variable U : usercode.
Variable cfg : config.

Definition rsite (c : call) : list (list pkey) := match c with CResolver p _ _ _ _ => [p] | _ => [] end.
Definition rsites (l : list call) : list (list pkey) := flat_map rsite l.
Lemma rsites_app a b : rsites (a ++ b) = rsites a ++ rsites b.
Proof. apply flat_map_app. Qed.

Definition ext (p q : list pkey) : Prop := exists r, q = p ++ r.
Definition sext (p q : list pkey) : Prop := exists a r, q = p ++ a :: r.

Lemma sext_ext p q : sext p q -> ext p q.
Proof. intros (a & r & ->). now exists (a :: r). Qed.
Lemma ext_snoc_sext p a q : ext (p ++ [a]) q -> sext p q.
Proof. intros (r & ->). exists a, r. now rewrite <- app_assoc. Qed.
Lemma sext_snoc_sext p a q : sext (p ++ [a]) q -> sext p q.
Proof. intros H. apply ext_snoc_sext with a. now apply sext_ext. Qed.
Lemma ext_diff p a b q : ext (p ++ [a]) q -> ext (p ++ [b]) q -> a = b.
Proof.
  intros (r & ->) (r' & H). rewrite <- !app_assoc in H. apply app_inv_head in H. now injection H.
Qed.
Lemma not_sext_self p : ~ sext p p.
Proof.
  intros (a & r & H). rewrite <- (app_nil_r p) in H at 1. apply app_inv_head in H. discriminate.
Qed.

Definition within (R : list pkey -> Prop) (L : list call) : Prop :=
  NoDup (rsites L) /\ forall q, In q (rsites L) -> R q.
Definition app_log {A} (m : M A) (R : list pkey -> Prop) : Prop :=
  forall s, exists L, s_log (snd (m s)) = s_log s ++ L /\ within R L.

Lemma within_nil R : within R [].
Proof. split; [constructor|intros q []]. Qed.
Lemma within_weaken (R R' : list pkey -> Prop) L : within R L -> (forall q, R q -> R' q) -> within R' L.
Proof. intros [H1 H2] H. split; [exact H1|auto]. Qed.
Lemma within_app (R1 R2 : list pkey -> Prop) L1 L2 :
  within R1 L1 -> within R2 L2 -> (forall q, R1 q -> R2 q -> False) ->
  within (fun q => R1 q \/ R2 q) (L1 ++ L2).
Proof.
  intros [N1 H1] [N2 H2] Hd. split.
  - rewrite rsites_app. induction (rsites L1) as [|x l IH]; [exact N2|].
    inversion N1 as [|? ? Hx Nl]. constructor.
    + intros Hin. apply in_app_or in Hin. destruct Hin as [Hin|Hin]; [contradiction|].
      apply (Hd x); [apply H1; now left|now apply H2].
    + apply IH; [exact Nl|]. intros q Hq. apply H1. now right.
  - intros q Hq. rewrite rsites_app in Hq. apply in_app_or in Hq. destruct Hq; auto.
Qed.
Lemma app_nil_log {A} (m : M A) R : (forall s, s_log (snd (m s)) = s_log s) -> app_log m R.
Proof. intros H s. exists []. rewrite app_nil_r. split; [apply H|apply within_nil]. Qed.

Lemma calls_ext {A} (m m' : M A) R : (forall s, m s = m' s) -> app_log m' R -> app_log m R.
Proof. intros H H' s. rewrite H. apply H'. Qed.
Lemma calls_weaken {A} (m : M A) (R R' : list pkey -> Prop) : app_log m R -> (forall q, R q -> R' q) -> app_log m R'.
Proof. intros H Hw s. destruct (H s) as (L & E & W). exists L. split; [exact E|now apply within_weaken with R]. Qed.
Lemma calls_ret {A} (r : outcome A) R : app_log (ret r) R.
Proof. now apply app_nil_log. Qed.
(* sequencing: the regions add up, provided they cannot overlap *)
Lemma calls_andthen {A B} (m : M A) (k : outcome A -> M B) (R1 R2 : list pkey -> Prop) :
  app_log m R1 -> (forall r, app_log (k r) R2) -> (forall q, R1 q -> R2 q -> False) ->
  app_log (andthen m k) (fun q => R1 q \/ R2 q).
Proof.
  intros H1 H2 Hd s. unfold andthen. destruct (H1 s) as (L1 & E1 & W1). destruct (m s) as [r s1]. cbn [snd] in E1.
  destruct (H2 r s1) as (L2 & E2 & W2). exists (L1 ++ L2). split; [now rewrite E2, E1, app_assoc|now apply within_app].
Qed.
Lemma calls_then {A B} (m : M A) (k : outcome A -> M B) R :
  app_log m R -> (forall r s, s_log (snd (k r s)) = s_log s) -> app_log (andthen m k) R.
Proof.
  intros H Hk. eapply calls_weaken; [apply (calls_andthen m k R (fun _ => False) H)|].
  - intros r. apply app_nil_log, Hk.
  - intros q _ [].
  - intros q [Hq|[]]. exact Hq.
Qed.
Lemma calls_gather {A B C} (f : A -> B -> C) (m : M A) (ms : M B) (R1 R2 : list pkey -> Prop) :
  app_log m R1 -> app_log ms R2 -> (forall q, R1 q -> R2 q -> False) ->
  app_log (andthen m (fun r => andthen ms (fun rs => ret (merge f r rs)))) (fun q => R1 q \/ R2 q).
Proof. intros H1 H2 Hd. apply calls_andthen; [exact H1| |exact Hd]. intros r. now apply calls_then. Qed.
Lemma calls_serial {A B C} (f : A -> B -> C) (m : M A) (ms : M B) (R1 R2 : list pkey -> Prop) :
  app_log m R1 -> app_log ms R2 -> (forall q, R1 q -> R2 q -> False) ->
  app_log (andthen m (fun r => proceed r (fun a => andthen ms (fun rs => ret (lift (f a) rs))))) (fun q => R1 q \/ R2 q).
Proof.
  intros H1 H2 Hd. apply calls_andthen; [exact H1| |exact Hd]. intros [a|l|e]; try apply calls_ret. now apply calls_then.
Qed.

Section Fields.
Variable opath : list pkey.
Variable rf : string -> list fnode -> M (option pyval).
Hypothesis Hrf : forall k ns, app_log (rf k ns) (ext (opath ++ [KName k])).

Definition below (fs : fields) (q : list pkey) : Prop := exists k ns, In (k, ns) fs /\ ext (opath ++ [KName k]) q.

Lemma below_head_tail_disjoint k ns rest q :
  NoDup (keys ((k, ns) :: rest)) -> ext (opath ++ [KName k]) q -> below rest q -> False.
Proof.
  intros Hnd He (k' & ns' & Hin & He'). inversion Hnd as [|? ? Hni _].
  pose proof (ext_diff _ _ _ _ He He') as Hk. injection Hk as ->.
  apply Hni. apply (in_map fst rest (k', ns') Hin).
Qed.

Lemma below_cons k ns rest q : (ext (opath ++ [KName k]) q \/ below rest q) -> below ((k, ns) :: rest) q.
Proof.
  intros [H|(k' & ns' & Hin & H)]; [exists k, ns; split; [now left|exact H]|exists k', ns'; split; [now right|exact H]].
Qed.

Lemma nodup_tail k ns (rest : fields) : NoDup (keys ((k, ns) :: rest)) -> NoDup (keys rest).
Proof. intros H. now inversion H. Qed.

Lemma conc_calls : forall fs, NoDup (keys fs) -> app_log (exec_fields_conc rf fs) (below fs).
Proof.
  induction fs as [|[k ns] rest IH]; intros Hnd; [apply calls_ret|]. eapply calls_ext; [apply conc_cons|].
  eapply calls_weaken; [apply calls_gather; [apply Hrf|apply IH, (nodup_tail k ns), Hnd|]| apply below_cons].
  intros q. now apply below_head_tail_disjoint with ns.
Qed.

(* per-field settings: the fields awaited on the spot (first pass), then the deferred ones *)
Variable isc : string -> list fnode -> bool.
Definition below_sel (b : bool) (fs : fields) (q : list pkey) : Prop :=
  exists k ns, In (k, ns) fs /\ isc k ns = b /\ ext (opath ++ [KName k]) q.

Lemma below_sel_cons b k ns rest q :
  ((isc k ns = b /\ ext (opath ++ [KName k]) q) \/ below_sel b rest q) -> below_sel b ((k, ns) :: rest) q.
Proof.
  intros [[Hb H]|(k' & ns' & Hin & Hb & H)]; [exists k, ns; split; [now left|auto]|exists k', ns'; split; [now right|auto]].
Qed.
Lemma below_sel_below b fs q : below_sel b fs q -> below fs q.
Proof. intros (k & ns & Hin & _ & H). now exists k, ns. Qed.

(* the slots the first pass leaves empty are exactly the deferred fields *)
Definition slots_ok (fs : fields) (slots : list (option (option pyval))) : Prop :=
  Forall2 (fun f sl => match sl with None => isc (fst f) (snd f) = true | Some _ => isc (fst f) (snd f) = false end) fs slots.

Lemma pass1_slots : forall fs s slots, fst (mixed_pass1 isc rf fs s) = OVal slots -> slots_ok fs slots.
Proof.
  induction fs as [|[k ns] rest IH]; intros s slots; [intros H; injection H as <-; constructor|].
  rewrite pass1_cons. unfold andthen, proceed. destruct (isc k ns) eqn:Hc.
  - specialize (IH s). destruct (mixed_pass1 isc rf rest s) as [[sl|l|e] s1]; try discriminate.
    intros H; injection H as <-. constructor; [exact Hc|now apply IH].
  - destruct (rf k ns s) as [[o|l|e] s1]; try discriminate. specialize (IH s1).
    destruct (mixed_pass1 isc rf rest s1) as [[sl|l|e] s2]; try discriminate.
    intros H; injection H as <-. constructor; [exact Hc|now apply IH].
Qed.

Lemma pass1_calls : forall fs, NoDup (keys fs) -> app_log (mixed_pass1 isc rf fs) (below_sel false fs).
Proof.
  induction fs as [|[k ns] rest IH]; intros Hnd; [apply calls_ret|]. specialize (IH (nodup_tail k ns rest Hnd)).
  eapply calls_ext; [apply pass1_cons|]. destruct (isc k ns) eqn:Hc.
  - eapply calls_weaken; [apply calls_then; [exact IH|reflexivity]|]. intros q H. apply below_sel_cons. now right.
  - eapply calls_weaken; [apply calls_serial; [apply Hrf|exact IH|]|].
    + intros q H1 H2. exact (below_head_tail_disjoint k ns rest q Hnd H1 (below_sel_below _ _ _ H2)).
    + intros q [H|H]; apply below_sel_cons; [left; now split|now right].
Qed.

Lemma pass2_calls : forall fs slots, NoDup (keys fs) -> slots_ok fs slots ->
  app_log (mixed_pass2 rf fs slots) (below_sel true fs).
Proof.
  intros fs slots Hnd Hok. induction Hok as [|[k ns] sl rest srest Hsl Hok IH]; [apply calls_ret|].
  specialize (IH (nodup_tail k ns rest Hnd)). eapply calls_ext; [apply pass2_cons|].
  destruct sl as [o|].
  - eapply calls_weaken; [apply (calls_gather _ _ _ (fun _ => False)); [apply calls_ret|exact IH|tauto]|].
    intros q [[]|H]. apply below_sel_cons. now right.
  - eapply calls_weaken; [apply calls_gather; [apply Hrf|exact IH|]|].
    + intros q H1 H2. exact (below_head_tail_disjoint k ns rest q Hnd H1 (below_sel_below _ _ _ H2)).
    + intros q [H|H]; apply below_sel_cons; [left; now split|now right].
Qed.

Lemma in_keys_same_nodes (fs : fields) k ns ns' : NoDup (keys fs) -> In (k, ns) fs -> In (k, ns') fs -> ns = ns'.
Proof.
  induction fs as [|[k0 n0] rest IH]; intros Hnd H1 H2; [contradiction|].
  inversion Hnd as [|? ? Hni Hnd'].
  destruct H1 as [H1|H1]; destruct H2 as [H2|H2].
  - congruence.
  - injection H1 as -> ->. exfalso. apply Hni. apply (in_map fst rest (k, ns') H2).
  - injection H2 as -> ->. exfalso. apply Hni. apply (in_map fst rest (k, ns) H1).
  - now apply IH.
Qed.

Lemma mixed_calls fs : NoDup (keys fs) -> app_log (exec_fields_mixed isc rf fs) (below fs).
Proof.
  (* the first pass calls only below fields awaited on the spot, the second only below deferred ones; a path
     below both would be below one key (ext_diff), whose single node list (NoDup keys) would be both deferred and
     not *)
  intros Hnd s. rewrite mixed_eq. unfold andthen. destruct (pass1_calls fs Hnd s) as (L1 & E1 & W1).
  pose proof (pass1_slots fs s) as Hs. destruct (mixed_pass1 isc rf fs s) as [[slots|l|e] s1]; cbn [fst snd proceed ret] in *;
    try (exists L1; split; [exact E1|]; eapply within_weaken; [exact W1|apply below_sel_below]).
  destruct (pass2_calls fs slots Hnd (Hs slots eq_refl) s1) as (L2 & E2 & W2).
  exists (L1 ++ L2). split; [now rewrite E2, E1, app_assoc|].
  eapply within_weaken; [apply (within_app _ _ _ _ W1 W2)|].
  - intros q (k & ns & Hin & Hb & He) (k' & ns' & Hin' & Hb' & He').
    pose proof (ext_diff _ _ _ _ He He') as Hk. injection Hk as ->.
    rewrite (in_keys_same_nodes fs k' ns ns' Hnd Hin Hin') in Hb. congruence.
  - intros q [H|H]; exact (below_sel_below _ _ _ H).
Qed.

Lemma below_sext fs q : below fs q -> sext opath q.
Proof. intros (k & ns & _ & H). now apply ext_snoc_sext with (KName k). Qed.
End Fields.

(* all fields awaited on the spot: a corner case of the two-pass walk *)
Lemma seq_calls opath rf fs :
  (forall k ns, app_log (rf k ns) (ext (opath ++ [KName k]))) -> NoDup (keys fs) -> app_log (exec_fields_seq rf fs) (below opath fs).
Proof.
  intros Hrf Hnd. eapply calls_ext; [symmetry; apply (mixed_all_seq rf (fun _ _ => false)); reflexivity|].
  now apply mixed_calls.
Qed.

Definition from_index (path : list pkey) (i : Z) (q : list pkey) : Prop := exists j, (i <= j)%Z /\ sext (path ++ [KIdx j]) q.

Lemma complete_items_calls (ci : pyval -> list pkey -> M pyval) path :
  (forall x p, app_log (ci x p) (sext p)) ->
  forall items i, app_log (complete_items ci path i items) (from_index path i).
Proof.
  intros Hci. induction items as [|x xs IH]; intros i; [apply calls_ret|]. eapply calls_ext; [apply items_cons|].
  eapply calls_weaken; [apply calls_gather; [apply Hci|apply IH|]|].
  - intros q H1 (j & Hj & H2). pose proof (ext_diff _ _ _ _ (sext_ext _ _ H1) (sext_ext _ _ H2)) as Hk.
    injection Hk as Hij. lia.
  - intros q [H|(j & Hj & H)]; [exists i; split; [lia|exact H]|exists j; split; [lia|exact H]].
Qed.

Lemma from_index_sext path i q : from_index path i q -> sext path q.
Proof. intros (j & _ & H). now apply sext_snoc_sext with (KIdx j). Qed.

Lemma catch_calls nodes p t m R : app_log m R -> app_log (catch nodes p t m) R.
Proof. intros H. apply calls_then; [exact H|]. intros [v|l|e] s; try reflexivity. rewrite handle_field_error_eq. now destruct (is_non_null t). Qed.

Section Coerce.
Variable nodes : list fnode.
Variable leaf : string -> pyval -> list pkey -> M pyval.
Hypothesis Hleaf : forall n v lp, app_log (leaf n v lp) (sext lp).

Lemma coerce_output_calls : forall t v p, app_log (coerce_output nodes leaf t v p) (sext p).
Proof.
  induction t as [n|t IH|t IH]; intros v p; [apply Hleaf|..].
  - eapply calls_ext; [apply coerce_output_list|]. destruct v; try apply calls_ret.
    apply calls_then; [|reflexivity]. eapply calls_weaken; [|apply from_index_sext]. apply complete_items_calls.
    intros x q. apply catch_calls. unfold completed. destruct (is_exc_value x); [apply calls_ret|apply IH].
  - eapply calls_ext; [apply coerce_output_nonnull|]. apply calls_then; [apply IH|reflexivity].
Qed.
End Coerce.

Definition rf_calls (rf : rfun) : Prop :=
  forall otype value opath k ns, app_log (rf otype value opath k ns) (ext (opath ++ [KName k])).

Lemma collect_subfields_keys otype nodes sub :
  collect_subfields sch doc vs COLLECT_FUEL otype nodes [] [] = Some sub -> NoDup (keys sub).
Proof.
  unfold COLLECT_FUEL. rewrite collect_subfields_refines_spec.
  destruct (spec_collect _ _ _ _ _ _ _) as [[flat v]|]; [|discriminate]. intros H. injection H as <-.
  apply group_fields_nodup. constructor.
Qed.

Lemma exec_sub_calls rf nodes otype value opath : rf_calls rf -> app_log (exec_sub sch doc vs cfg rf nodes otype value opath) (sext opath).
Proof.
  intros Hrf. eapply calls_ext; [apply exec_sub_eq|].
  destruct (collect_subfields sch doc vs COLLECT_FUEL otype nodes [] []) as [sub|] eqn:Hc; [|apply calls_ret].
  apply calls_then; [|reflexivity]. eapply calls_weaken; [|apply below_sext].
  apply mixed_calls; [apply Hrf|exact (collect_subfields_keys _ _ _ Hc)].
Qed.

Lemma add_call_tr_log path n v s : rsites (s_log (add_call (CTypeResolver path n v) s)) = rsites (s_log s).
Proof. cbn. rewrite rsites_app. now rewrite app_nil_r. Qed.

(* a type resolver's invocation is not a resolver site *)
Lemma calls_after_type_resolver {A} ptype fd path n v (m : M A) R :
  app_log m R -> app_log (fun s => m (abstract_state U ptype fd path n v s)) R.
Proof.
  intros H s. unfold abstract_state. destruct (type_resolver_kind U n ptype (fd_name fd)); [apply H|].
  destruct (H (add_call (CTypeResolver path n v) s)) as (L & E & [W1 W2]).
  exists ([CTypeResolver path n v] ++ L). split; [rewrite E; cbn; now rewrite <- app_assoc|].
  split; [exact W1|intros q Hq; now apply W2].
Qed.

Lemma leaf_coercer_calls rf ptype fd nodes path n v lp :
  rf_calls rf -> app_log (leaf_coercer sch doc vs U cfg rf ptype fd nodes path n v lp) (sext lp).
Proof.
  intros Hrf. eapply calls_ext; [apply leaf_coercer_eq|].
  assert (Habs : app_log (abstract_leaf sch doc vs U cfg rf ptype fd nodes path n v lp) (sext lp)).
  { unfold abstract_leaf. destruct (abstract_type sch U ptype fd nodes path n v) as [rt|l|e].
    - apply (calls_after_type_resolver ptype fd path n v (exec_sub sch doc vs cfg rf nodes rt v lp)). now apply exec_sub_calls.
    - apply (calls_after_type_resolver ptype fd path n v (ret (OExc l))), calls_ret.
    - apply (calls_after_type_resolver ptype fd path n v (ret (OCrash e))), calls_ret. }
  destruct (find_type sch n) as [[ |values|ins|ifs fs|ifields|ms]|];
    try apply calls_ret; (destruct (is_none v); [apply calls_ret|]).
  - apply calls_ret.
  - apply calls_ret.
  - now apply exec_sub_calls.
  - exact Habs.
  - exact Habs.
Qed.

Lemma resolve_field_body_calls rf : rf_calls rf -> rf_calls (resolve_field_body sch doc vs U cfg rf).
Proof.
  intros Hrf otype value opath k [|node rest]; [apply calls_ret|].
  eapply calls_ext; [apply resolve_field_body_eq|].
  destruct (get_field_definition sch otype (fn_name node)) as [fd|]; [|apply calls_ret].
  set (path := opath ++ [KName k]).
  assert (Hrv : app_log (resolve_value sch vs U otype value path fd node) (fun q => q = path)).
  { intros s. rewrite resolve_value_eq. eexists. split; [reflexivity|].
    destruct (resolved_log sch vs U otype value path fd node) as [->|(args & ->)]; [apply within_nil|].
    split; [constructor; [intros []|constructor]|intros q [<-|[]]; reflexivity]. }
  assert (Hcf : forall raw, app_log (complete_field sch doc vs U cfg rf otype fd (node :: rest) path raw) (sext path)).
  { intros raw. eapply calls_ext; [apply complete_field_eq|]. apply calls_then; [|reflexivity]. apply catch_calls.
    destruct raw as [v|l|e]; try apply calls_ret. unfold completed. destruct (is_exc_value v); [apply calls_ret|].
    apply coerce_output_calls. intros n0 v0 lp. now apply leaf_coercer_calls. }
  eapply calls_weaken; [apply (calls_andthen _ _ _ (sext path) Hrv)|].
  - intros [v|l|e]; [apply Hcf|apply Hcf|apply calls_ret].
  - intros q -> H. exact (not_sext_self path H).
  - intros q [->|H]; [exists []; now rewrite app_nil_r|now apply sext_ext].
Qed.

Theorem resolve_field_calls : forall fuel, rf_calls (resolve_field sch doc vs U cfg fuel).
Proof.
  induction fuel as [|fuel IH]; [intros otype value opath k ns; apply (calls_ret (OCrash OutOfFuel))|].
  now apply resolve_field_body_calls.
Qed.

Lemma collect_fields_keys rt sels fs v :
  collect_fields sch doc vs COLLECT_FUEL rt sels [] [] = Some (fs, v) -> NoDup (keys fs).
Proof.
  rewrite collect_fields_refines_spec.
  destruct (spec_collect _ _ _ _ _ _ _) as [[flat v']|]; [|discriminate]. intros H. injection H as <- _.
  apply group_fields_nodup. constructor.
Qed.

Theorem execute_operation_calls_once op root r :
  execute_operation sch doc vs U cfg op root = OVal r -> NoDup (rsites (r_log r)).
Proof.
  rewrite execute_operation_eq. destruct (root_type_of sch (o_kind op)) as [rt|]; [|discriminate].
  destruct (collect_fields sch doc vs COLLECT_FUEL rt (o_sels op) [] []) as [[fs v]|] eqn:Hc; [|discriminate].
  pose proof (collect_fields_keys _ _ _ _ Hc) as Hnd.
  assert (Hrf : forall k ns, app_log (resolve_field sch doc vs U cfg EXEC_FUEL rt root [] k ns) (ext ([] ++ [KName k])))
    by (apply resolve_field_calls).
  assert (Hrun : app_log (run_operation sch doc vs U cfg op rt root fs) (below [] fs))
    by (unfold run_operation; destruct (o_kind op); [now apply mixed_calls|now apply seq_calls|now apply mixed_calls]).
  destruct (Hrun st0) as (L & E & [W _]). destruct (run_operation _ _ _ _ _ _ _ _ _ st0) as [[kv|l|e] s]; cbn [snd] in E;
    intros H; [| |discriminate]; injection H as <-; now rewrite E.
Qed.

End Calls.
