(* Schedule independence for EVERY program of the async calculus (Model/Async.v):
   whatever order the blocked user coroutines are released in, a run that reaches the end has the
   result of the run in which every coroutine returns at once, and the same events up to
   permutation; every release strictly decreases the number of coroutines still to finish.
   `complete` (finish everything that is pending, at once) is the abstraction function: `start`
   leaves to `complete` what `run_seq` would have done, and a release does not change it. *)
From Coq Require Import ZArith List String Bool Lia Permutation.
From TV Require Import Py.Prelude Model.Schema Model.ImplExec Model.Async.
Import ListNotations.

Section ProgInd.
Variable P : prog -> Prop.
Hypothesis HRet : forall r, P (Ret r).
Hypothesis HCall : forall s t f src a k, (forall u, P (k u)) -> P (Call s t f src a k).
Hypothesis HEmit : forall e k, P k -> P (Emit e k).
Hypothesis HGather : forall cs k, Forall P cs -> (forall rs, P (k rs)) -> P (Gather cs k).

Fixpoint prog_ind' (p : prog) : P p :=
  match p with
  | Ret r => HRet r
  | Call s t f src a k => HCall s t f src a k (fun u => prog_ind' (k u))
  | Emit e k => HEmit e k (prog_ind' k)
  | Gather cs k =>
      HGather cs k
        ((fix go (cs : list prog) : Forall P cs :=
            match cs with
            | [] => Forall_nil P
            | c :: cs' => Forall_cons c (prog_ind' c) (go cs')
            end) cs)
        (fun rs => prog_ind' (k rs))
  end.
End ProgInd.

Section ProcInd.
Variable P : proc -> Prop.
Hypothesis HDone : forall r, P (PDone r).
Hypothesis HBlocked : forall s t f src a k, P (PBlocked s t f src a k).
Hypothesis HJoin : forall cs k, Forall P cs -> P (PJoin cs k).

Fixpoint proc_ind' (p : proc) : P p :=
  match p with
  | PDone r => HDone r
  | PBlocked s t f src a k => HBlocked s t f src a k
  | PJoin cs k =>
      HJoin cs k
        ((fix go (cs : list proc) : Forall P cs :=
            match cs with
            | [] => Forall_nil P
            | c :: cs' => Forall_cons c (proc_ind' c) (go cs')
            end) cs)
  end.
End ProcInd.

(* the interpreters return through `let (r, ev) := ... in`: read with projections, no destruct is needed *)
Lemma let_pair {A B C} (x : A * B) (f : A -> B -> C) : (let (a, b) := x in f a b) = f (fst x) (snd x).
Proof. now destruct x. Qed.

Lemma path_eqb_refl (s : site) : path_eqb s s = true.
Proof.
  induction s as [|x s IH]; [reflexivity|]. cbn. rewrite IH, andb_true_r.
  destruct x; [apply String.eqb_refl|apply Z.eqb_refl].
Qed.

(* the anonymous fixes inside the three interpreters: results in list order, logs concatenated.
   `Definition := fix` under the binder (likewise `releases` below): so they are convertible with
   those anonymous fixes, and start_gather / release_join hold by conversion *)
Definition in_order {A B} (f : A -> B * list event) : list A -> list B * list event :=
  fix go (cs : list A) : list B * list event :=
  match cs with
  | [] => ([], [])
  | c :: cs' => let (r, e1) := f c in
                let (rs, e2) := go cs' in (r :: rs, e1 ++ e2)
  end.

Lemma in_order_cons {A B} (f : A -> B * list event) c cs :
  in_order f (c :: cs) = (fst (f c) :: fst (in_order f cs), snd (f c) ++ snd (in_order f cs)).
Proof. cbn. now destruct (f c), (in_order f cs). Qed.

Lemma in_order_fst {A B} (f : A -> B * list event) cs : fst (in_order f cs) = map (fun c => fst (f c)) cs.
Proof. induction cs as [|c cs IH]; [reflexivity|]. rewrite in_order_cons. now rewrite IH. Qed.

Section Confluence.
Variable oracle : site -> string -> string -> pyval -> list (string * pyval) -> uret.

Fixpoint run_seqs (cs : list prog) : list res * list event :=
  match cs with
  | [] => ([], [])
  | c :: cs' => let (r, e1) := run_seq oracle c in
                let (rs, e2) := run_seqs cs' in (r :: rs, e1 ++ e2)
  end.
Notation starts := (in_order start).
Notation completes := (in_order (complete oracle)).

Definition releases (s : site) : list proc -> option (list proc * list event) :=
  fix go (cs : list proc) : option (list proc * list event) :=
  match cs with
  | [] => None
  | c :: cs' =>
      match release oracle s c with
      | Some (c', ev) => Some (c' :: cs', ev)
      | None => match go cs' with
                | Some (cs'', ev) => Some (c :: cs'', ev)
                | None => None
                end
      end
  end.

Lemma releases_cons s c cs :
  releases s (c :: cs) =
  match release oracle s c with
  | Some (c', ev) => Some (c' :: cs, ev)
  | None => match releases s cs with Some (cs'', ev) => Some (c :: cs'', ev) | None => None end
  end.
Proof. reflexivity. Qed.

(* what a fan-out does once its children are started, or once one of them has been released *)
Definition join (procs : list proc) (k : list res -> prog) (ev : list event) : proc * list event :=
  match all_done procs with
  | Some rs => let (q, ev') := start (k rs) in (q, ev ++ ev')
  | None => (PJoin procs k, ev)
  end.

Lemma run_seqs_cons c cs :
  run_seqs (c :: cs) = (fst (run_seq oracle c) :: fst (run_seqs cs), snd (run_seq oracle c) ++ snd (run_seqs cs)).
Proof. exact (in_order_cons (run_seq oracle) c cs). Qed.

Lemma run_seqs_fst cs : fst (run_seqs cs) = map (fun c => fst (run_seq oracle c)) cs.
Proof. exact (in_order_fst (run_seq oracle) cs). Qed.

Lemma run_seq_gather cs k :
  run_seq oracle (Gather cs k) =
  (fst (run_seq oracle (k (fst (run_seqs cs)))), snd (run_seqs cs) ++ snd (run_seq oracle (k (fst (run_seqs cs))))).
Proof. exact (let_pair _ (fun r ev => (r, snd (run_seqs cs) ++ ev))). Qed.

Lemma complete_join cs k :
  complete oracle (PJoin cs k) =
  (fst (run_seq oracle (k (fst (completes cs)))), snd (completes cs) ++ snd (run_seq oracle (k (fst (completes cs))))).
Proof. exact (let_pair _ (fun r ev => (r, snd (completes cs) ++ ev))). Qed.

Lemma start_gather cs k : start (Gather cs k) = join (fst (starts cs)) k (snd (starts cs)).
Proof. reflexivity. Qed.

Lemma release_join s cs k :
  release oracle s (PJoin cs k) =
  match releases s cs with Some (procs, ev) => Some (join procs k ev) | None => None end.
Proof.
  transitivity (match releases s cs with
                | None => None
                | Some (procs, ev) =>
                    match all_done procs with
                    | Some rs => let (q, ev') := start (k rs) in Some (q, ev ++ ev')
                    | None => Some (PJoin procs k, ev)
                    end
                end); [reflexivity|].
  destruct (releases s cs) as [[procs ev]|]; [|reflexivity]. unfold join.
  destruct (all_done procs); [now destruct (start (k l))|reflexivity].
Qed.

Lemma run_seq_bind f : forall p,
  run_seq oracle (bind p f) =
  (fst (run_seq oracle (f (fst (run_seq oracle p)))),
   snd (run_seq oracle p) ++ snd (run_seq oracle (f (fst (run_seq oracle p))))).
Proof.
  apply prog_ind'.
  - intros r. cbn. now destruct (run_seq oracle (f r)).
  - intros s t fd src a k IH. cbn. rewrite IH. now destruct (run_seq oracle (k (oracle s t fd src a))).
  - intros e k IH. cbn. rewrite IH. now destruct (run_seq oracle k).
  - intros cs k Hcs Hk. cbn [bind]. rewrite !run_seq_gather, Hk. cbn [fst snd]. now rewrite app_assoc.
Qed.

Lemma all_done_completes qs rs : all_done qs = Some rs -> completes qs = (rs, []).
Proof.
  revert rs. induction qs as [|q qs IH]; intros rs.
  - intros H; inversion H; reflexivity.
  - destruct q as [r| |]; cbn; try discriminate.
    destruct (all_done qs) as [rs'|]; [|discriminate].
    intros H; inversion H. now rewrite (IH rs' eq_refl).
Qed.

(* what is logged so far, then everything still pending at once: invariant under start and release *)
Definition eventually (acc : list event) (q : proc) : res * list event :=
  (fst (complete oracle q), acc ++ snd (complete oracle q)).
Definition agree (x y : res * list event) : Prop := fst x = fst y /\ Permutation (snd x) (snd y).

Lemma agree_refl x : agree x x.
Proof. split; reflexivity. Qed.
Lemma agree_trans x y z : agree x y -> agree y z -> agree x z.
Proof. intros [A B] [C D]. split; [congruence|etransitivity; eassumption]. Qed.
Lemma agree_prefix acc x y : agree x y -> agree (fst x, acc ++ snd x) (fst y, acc ++ snd y).
Proof. intros [A B]. split; [exact A|now apply Permutation_app_head]. Qed.

Definition start_ok (p : prog) : Prop := agree (eventually (snd (start p)) (fst (start p))) (run_seq oracle p).

Lemma join_complete procs k ev :
  (forall rs, start_ok (k rs)) ->
  agree (eventually (snd (join procs k ev)) (fst (join procs k ev))) (eventually ev (PJoin procs k)).
Proof.
  intros Hk. unfold join, eventually. destruct (all_done procs) as [rs|] eqn:Ed; [|apply agree_refl].
  rewrite complete_join, (all_done_completes _ _ Ed). destruct (Hk rs) as [Hr Hp].
  destruct (start (k rs)) as [q ev']. cbn [fst snd app] in *. split; [exact Hr|].
  rewrite <- app_assoc. now apply Permutation_app_head.
Qed.

Lemma starts_ok cs :
  Forall start_ok cs ->
  fst (completes (fst (starts cs))) = fst (run_seqs cs) /\
  Permutation (snd (starts cs) ++ snd (completes (fst (starts cs)))) (snd (run_seqs cs)).
Proof.
  induction 1 as [|c cs [Hr Hp] _ [IHr IHp]]; [split; [reflexivity|constructor]|]. unfold eventually in Hr, Hp.
  rewrite run_seqs_cons, (in_order_cons start). cbn [fst snd]. rewrite (in_order_cons (complete oracle)). cbn [fst snd] in *.
  split; [now rewrite Hr, IHr|]. rewrite <- Hp, <- IHp, <- !app_assoc.
  apply Permutation_app_head, Permutation_app_swap_app.
Qed.

Theorem start_complete : forall p, start_ok p.
Proof.
  apply prog_ind'; unfold start_ok, eventually.
  - split; [reflexivity|constructor].
  - intros s t f src a k IH. cbn. destruct (run_seq oracle (k (oracle s t f src a))). split; reflexivity.
  - intros e k [IHr IHp]. cbn. destruct (start k) as [q ev]. destruct (run_seq oracle k) as [r ev0].
    split; [exact IHr|]. now constructor.
  - intros cs k Hcs Hk. destruct (starts_ok cs Hcs) as [Hr Hp].
    destruct (join_complete (fst (starts cs)) k (snd (starts cs)) Hk) as [Jr Jp].
    unfold eventually in Jr, Jp. rewrite complete_join, Hr in Jr, Jp. cbn [fst snd] in Jr, Jp.
    rewrite run_seq_gather. split; [exact Jr|]. etransitivity; [exact Jp|].
    rewrite app_assoc. now apply Permutation_app_tail.
Qed.

Definition release_ok (p : proc) : Prop :=
  forall s p' ev, release oracle s p = Some (p', ev) -> agree (eventually ev p') (eventually [] p) /\ finishes_of ev <> [].

Lemma releases_ok s cs :
  Forall release_ok cs -> forall procs ev, releases s cs = Some (procs, ev) ->
    fst (completes procs) = fst (completes cs) /\
    Permutation (ev ++ snd (completes procs)) (snd (completes cs)) /\
    finishes_of ev <> [].
Proof.
  induction 1 as [|c cs Hc _ IH]; intros procs ev; [discriminate|]; rewrite releases_cons.
  destruct (release oracle s c) as [[c' ev1]|] eqn:Er.
  - intros E; inversion E; subst. destruct (Hc _ _ _ Er) as ([Hr Hp] & Hf). unfold eventually in Hr, Hp. cbn [fst snd app] in Hr, Hp.
    rewrite !(in_order_cons (complete oracle)). cbn [fst snd]. split; [now rewrite Hr|]. split; [|exact Hf].
    rewrite app_assoc. now apply Permutation_app_tail.
  - destruct (releases s cs) as [[cs'' ev1]|]; [|discriminate].
    intros E; inversion E; subst. destruct (IH _ _ eq_refl) as (Hr & Hp & Hf).
    rewrite !(in_order_cons (complete oracle)). cbn [fst snd]. split; [now rewrite Hr|]. split; [|exact Hf].
    rewrite <- Hp. apply Permutation_app_swap_app.
Qed.

Lemma errors_of_app a b : errors_of (a ++ b) = errors_of a ++ errors_of b.
Proof. apply flat_map_app. Qed.
Lemma calls_of_app a b : calls_of (a ++ b) = calls_of a ++ calls_of b.
Proof. apply flat_map_app. Qed.
Lemma starts_of_app a b : starts_of (a ++ b) = starts_of a ++ starts_of b.
Proof. apply flat_map_app. Qed.
Lemma finishes_of_app a b : finishes_of (a ++ b) = finishes_of a ++ finishes_of b.
Proof. apply flat_map_app. Qed.

Lemma join_finishes procs k ev : finishes_of ev <> [] -> finishes_of (snd (join procs k ev)) <> [].
Proof.
  intros Hf. unfold join. destruct (all_done procs); [|exact Hf]. destruct (start (k l)). cbn [snd].
  rewrite finishes_of_app. intros Hn. now apply app_eq_nil in Hn.
Qed.

Theorem release_complete : forall p, release_ok p.
Proof.
  (* a blocked coroutine: its continuation is started, and start_complete says that is what `complete` would have
     run; a join: one child is released (releases_ok) and the join may then fire (join_complete) *)
  apply proc_ind'.
  - discriminate.
  - intros s' t f src a k s p' ev. cbn [release].
    destruct (path_eqb s s'); [|discriminate].
    destruct (start_complete (k (oracle s' t f src a))) as [Hr Hp]. unfold eventually in *.
    destruct (start (k (oracle s' t f src a))) as [q ev0]. intros E; inversion E; subst. cbn [complete fst snd app] in *.
    destruct (run_seq oracle (k (oracle s' t f src a))) as [r evk].
    split; [split; [exact Hr|now constructor]|discriminate].
  - intros cs k Hcs s p' ev. rewrite release_join.
    destruct (releases s cs) as [[procs ev1]|] eqn:Ers; [|discriminate].
    destruct (releases_ok s cs Hcs _ _ Ers) as (Hr & Hp & Hf). intros E.
    pose proof (join_finishes procs k ev1 Hf) as Jf. destruct (join_complete procs k ev1 (fun rs => start_complete (k rs))) as [Jr Jp].
    replace (join procs k ev1) with (p', ev) in * by congruence. split; [|exact Jf].
    unfold eventually in *. rewrite complete_join in *. cbn [fst snd app] in *. rewrite Hr in Jr, Jp.
    split; [exact Jr|]. etransitivity; [exact Jp|]. rewrite app_assoc. now apply Permutation_app_tail.
Qed.

Lemma run_picks_complete picks : forall q acc q' evs,
  run_picks oracle picks q acc = Some (q', evs) -> agree (eventually evs q') (eventually acc q).
Proof.
  induction picks as [|s picks IH]; intros q acc q' evs; cbn.
  - intros E; inversion E. apply agree_refl.
  - destruct (release oracle s q) as [[q1 ev]|] eqn:Er; [|discriminate].
    intros E. eapply agree_trans; [exact (IH _ _ _ _ E)|]. destruct (release_complete q _ _ _ Er) as [Ha _].
    apply (agree_prefix acc) in Ha. unfold eventually in *. now rewrite <- app_assoc.
Qed.

Theorem schedule_independence picks p r evs :
  run_sched oracle picks p = Some (PDone r, evs) ->
  r = fst (run_seq oracle p) /\ Permutation evs (snd (run_seq oracle p)).
Proof.
  unfold run_sched. destruct (start_complete p) as [Hr Hp]. destruct (start p) as [q ev0].
  intros E. destruct (run_picks_complete _ _ _ _ _ E) as [Hr' Hp']. unfold eventually in *.
  cbn [complete fst snd] in *. rewrite app_nil_r in Hp'. split; [congruence|]. now rewrite Hp'.
Qed.

Corollary any_two_schedules_agree picks1 picks2 p r1 r2 evs1 evs2 :
  run_sched oracle picks1 p = Some (PDone r1, evs1) ->
  run_sched oracle picks2 p = Some (PDone r2, evs2) ->
  r1 = r2 /\ Permutation evs1 evs2.
Proof.
  intros H1 H2. destruct (schedule_independence _ _ _ _ H1) as [-> P1].
  destruct (schedule_independence _ _ _ _ H2) as [-> P2]. split; [reflexivity|now rewrite P2].
Qed.

Theorem run_seq_balanced : forall p,
  starts_of (snd (run_seq oracle p)) = finishes_of (snd (run_seq oracle p)).
Proof.
  apply prog_ind'.
  - reflexivity.
  - intros s t f src a k IH. cbn. specialize (IH (oracle s t f src a)).
    destruct (run_seq oracle (k (oracle s t f src a))) as [r ev]. cbn in *. now rewrite IH.
  - intros e k IH. cbn. destruct (run_seq oracle k) as [r ev]. exact IH.
  - intros cs k Hcs Hk. rewrite run_seq_gather. cbn [snd]. rewrite starts_of_app, finishes_of_app, Hk. f_equal.
    induction Hcs as [|c cs Hc _ IH]; [reflexivity|]. rewrite run_seqs_cons. cbn [snd].
    now rewrite starts_of_app, finishes_of_app, Hc, IH.
Qed.

(* the measure of termination: the coroutines still to finish *)
Definition pending (q : proc) : nat := List.length (finishes_of (snd (complete oracle q))).

Theorem release_decreases s q q' ev :
  release oracle s q = Some (q', ev) -> (pending q' < pending q)%nat.
Proof.
  intros H. destruct (release_complete q _ _ _ H) as ([_ Hp] & Hf). unfold pending, finishes_of, eventually in *.
  apply (Permutation_flat_map (fun e => match e with EFinish s0 => [s0] | _ => [] end)), Permutation_length in Hp.
  cbn [snd app] in Hp. rewrite flat_map_app, app_length in Hp. destruct (flat_map _ ev); [congruence|]. cbn in Hp. lia.
Qed.

(* no deadlock: the states reached by start and release *)
Inductive normal : proc -> Prop :=
| NDone r : normal (PDone r)
| NBlocked s t f src a k : normal (PBlocked s t f src a k)
| NJoin cs k : Forall normal cs -> all_done cs = None -> normal (PJoin cs k).

Lemma join_normal procs k ev :
  (forall rs, normal (fst (start (k rs)))) -> Forall normal procs -> normal (fst (join procs k ev)).
Proof.
  intros Hk Hp. unfold join. destruct (all_done procs) as [rs|] eqn:Ed; [|now constructor].
  specialize (Hk rs). now destruct (start (k rs)).
Qed.

Theorem start_normal : forall p, normal (fst (start p)).
Proof.
  apply prog_ind'.
  - constructor.
  - constructor.
  - intros e k IH. cbn. destruct (start k). exact IH.
  - intros cs k Hcs Hk. rewrite start_gather. apply join_normal; [exact Hk|].
    rewrite in_order_fst. apply Forall_map. exact Hcs.
Qed.

Lemma releases_normal s cs :
  Forall (fun c => normal c -> forall s c' ev, release oracle s c = Some (c', ev) -> normal c') cs ->
  Forall normal cs -> forall procs ev, releases s cs = Some (procs, ev) -> Forall normal procs.
Proof.
  induction 1 as [|c cs Hc _ IH]; intros Hn procs ev; [discriminate|]; rewrite releases_cons.
  inversion Hn as [|? ? Hnc Hncs].
  destruct (release oracle s c) as [[c' ev1]|] eqn:Er.
  - intros E; inversion E. constructor; [eauto|exact Hncs].
  - destruct (releases s cs) as [[cs'' ev1]|]; [|discriminate].
    intros E; inversion E. constructor; [exact Hnc| eauto].
Qed.

Theorem release_normal : forall p, normal p -> forall s p' ev, release oracle s p = Some (p', ev) -> normal p'.
Proof.
  apply (proc_ind' (fun p => normal p -> forall s p' ev, release oracle s p = Some (p', ev) -> normal p')).
  - discriminate.
  - intros s' t f src a k _ s p' ev. cbn. destruct (path_eqb s s'); [|discriminate].
    pose proof (start_normal (k (oracle s' t f src a))) as Hn.
    destruct (start (k (oracle s' t f src a))) as [q ev0]. intros E; inversion E; subst. exact Hn.
  - intros cs k Hcs Hn s p' ev. rewrite release_join.
    destruct (releases s cs) as [[procs ev1]|] eqn:Ers; [|discriminate].
    intros E; inversion E as [E']. inversion Hn as [| |? ? Hall _]. replace p' with (fst (join procs k ev1)) by now rewrite E'.
    apply join_normal; [intros; apply start_normal|]. exact (releases_normal s cs Hcs Hall _ _ Ers).
Qed.

Lemma blocked_join cs k :
  blocked (PJoin cs k) = flat_map blocked cs.
Proof. cbn. induction cs as [|c cs IH]; [reflexivity|]. now rewrite IH. Qed.

Lemma releases_some s cs c :
  In c cs -> (exists c' ev, release oracle s c = Some (c', ev)) -> exists procs ev, releases s cs = Some (procs, ev).
Proof.
  induction cs as [|x cs IH]; intros Hin Hr; [contradiction|]. rewrite releases_cons.
  destruct (release oracle s x) as [[x' ev]|] eqn:Ex; [eauto|].
  destruct Hin as [-> | Hin].
  - destruct Hr as (c' & ev & Hr). congruence.
  - destruct (IH Hin Hr) as (procs & ev & ->). eauto.
Qed.

Theorem progress : forall p, normal p ->
  (exists r, p = PDone r) \/
  (exists s, In s (blocked p) /\ exists p' ev, release oracle s p = Some (p', ev)).
Proof.
  apply (proc_ind' (fun p => normal p -> (exists r, p = PDone r) \/
           (exists s, In s (blocked p) /\ exists p' ev, release oracle s p = Some (p', ev)))).
  - eauto.
  - right. exists s. split; [now left|]. cbn.
    rewrite path_eqb_refl. destruct (start (k (oracle s t f src a))). eauto.
  - intros cs k Hcs Hn. right. inversion Hn as [| |cs0 k0 Hall Hnd]; subst.
    assert (Hex : exists c, In c cs /\ forall r, c <> PDone r).
    { clear Hcs Hall Hn. induction cs as [|c cs IH]; [discriminate|].
      destruct c as [r| |]; try (eexists; split; [now left|discriminate]).
      cbn in Hnd. destruct (all_done cs); [discriminate|].
      destruct (IH eq_refl) as (c & Hin & Hc). exists c. split; [now right|exact Hc]. }
    destruct Hex as (c & Hin & Hc).
    pose proof (proj1 (Forall_forall _ _) Hcs c Hin) as IHc.
    pose proof (proj1 (Forall_forall _ _) Hall c Hin) as Hnc.
    destruct (IHc Hnc) as [[r Hr]|(s & Hs & Hrel)]; [exfalso; eapply Hc; eauto|].
    exists s. split.
    + apply in_flat_map. eauto.
    + rewrite release_join. destruct (releases_some s cs c Hin Hrel) as (procs & ev & ->).
      destruct (join procs k ev). eauto.
Qed.

Definition bind_proc (q : proc) (f : res -> prog) : proc :=
  match q with
  | PDone r => PDone r
  | PBlocked s t fd src a k => PBlocked s t fd src a (fun u => bind (k u) f)
  | PJoin cs k => PJoin cs (fun rs => bind (k rs) f)
  end.

(* a state of p seen as a state of `bind p f`: once p is done, what follows is started *)
Definition then_start (qe : proc * list event) (f : res -> prog) : proc * list event :=
  match done_res (fst qe) with
  | Some r => let (q', ev') := start (f r) in (q', snd qe ++ ev')
  | None => (bind_proc (fst qe) f, snd qe)
  end.

Lemma then_start_acc q acc ev f :
  then_start (q, acc ++ ev) f = (fst (then_start (q, ev) f), acc ++ snd (then_start (q, ev) f)).
Proof.
  unfold then_start. cbn [fst snd]. destruct (done_res q); [|reflexivity].
  destruct (start (f r)). cbn. now rewrite app_assoc.
Qed.

Lemma join_bind f procs k ev :
  (forall rs, start (bind (k rs) f) = then_start (start (k rs)) f) ->
  join procs (fun rs => bind (k rs) f) ev = then_start (join procs k ev) f.
Proof.
  intros Hk. unfold join. destruct (all_done procs) as [rs|]; [|reflexivity].
  rewrite Hk. destruct (start (k rs)) as [q ev']. rewrite then_start_acc. now destruct (then_start (q, ev') f).
Qed.

Lemma start_bind f : forall p, start (bind p f) = then_start (start p) f.
Proof.
  apply prog_ind'.
  - intros r. cbn. now destruct (start (f r)).
  - reflexivity.
  - intros e k IH. cbn [bind start]. rewrite IH. destruct (start k) as [q ev].
    change (EUser e :: ev) with ([EUser e] ++ ev). rewrite then_start_acc. now destruct (then_start (q, ev) f).
  - intros cs k Hcs Hk. now apply join_bind.
Qed.

Lemma release_bind f s q : done_res q = None ->
  release oracle s (bind_proc q f) =
  match release oracle s q with Some qe => Some (then_start qe f) | None => None end.
Proof.
  destruct q as [r|s' t fd src a k|cs k]; [discriminate| |]; intros _.
  - cbn. destruct (path_eqb s s'); [|reflexivity].
    rewrite start_bind. destruct (start (k (oracle s' t fd src a))) as [q ev].
    change (EFinish s' :: ev) with ([EFinish s'] ++ ev). rewrite then_start_acc. now destruct (then_start (q, ev) f).
  - cbn [bind_proc]. rewrite !release_join. destruct (releases s cs) as [[procs ev]|]; [|reflexivity].
    f_equal. apply join_bind. intros. apply start_bind.
Qed.

(* a complete run of `bind p f` is a complete run of p followed by a complete run of f's
   continuation: every event of p -- all its finishes included -- precedes every event of what
   follows -- its first start included *)
Lemma run_picks_then f : forall picks q acc r evs,
  run_picks oracle picks (fst (then_start (q, acc) f)) (snd (then_start (q, acc) f)) = Some (PDone r, evs) ->
  exists picks1 picks2 r1 evs1,
    picks = picks1 ++ picks2 /\ run_picks oracle picks1 q acc = Some (PDone r1, evs1) /\
    exists q2 ev2, start (f r1) = (q2, ev2) /\ run_picks oracle picks2 q2 (evs1 ++ ev2) = Some (PDone r, evs).
Proof.
  induction picks as [|s picks IH]; intros q acc r evs; unfold then_start; cbn [fst snd];
    destruct (done_res q) as [r1|] eqn:Ed.
  1,3: destruct q; inversion Ed; destruct (start (f r1)) as [q2 ev2] eqn:Es;
       eexists [], _, r1, acc; (split; [reflexivity|]); (split; [reflexivity|]); exists q2, ev2; auto.
  - destruct q; discriminate.
  - cbn [run_picks fst snd]. rewrite release_bind by exact Ed.
    destruct (release oracle s q) as [[q' ev]|] eqn:Er; [|discriminate].
    specialize (IH q' (acc ++ ev) r evs). rewrite then_start_acc in IH.
    destruct (then_start (q', ev) f) as [q0 ev0].
    intros E. destruct (IH E) as (p1 & p2 & r1 & evs1 & -> & H1 & H2).
    exists (s :: p1), p2, r1, evs1. cbn [run_picks]. now rewrite Er.
Qed.

Theorem bind_is_sequential f p picks r evs :
  run_sched oracle picks (bind p f) = Some (PDone r, evs) ->
  exists picks1 picks2 r1 evs1,
    picks = picks1 ++ picks2 /\
    run_sched oracle picks1 p = Some (PDone r1, evs1) /\
    exists q2 ev2, start (f r1) = (q2, ev2) /\ run_picks oracle picks2 q2 (evs1 ++ ev2) = Some (PDone r, evs).
Proof.
  unfold run_sched. rewrite start_bind. destruct (start p) as [q ev].
  destruct (then_start (q, ev) f) as [q0 ev0] eqn:E. intros H.
  apply (run_picks_then f picks q ev). now rewrite E.
Qed.

Lemma run_picks_acc picks : forall q acc ev,
  run_picks oracle picks q (acc ++ ev) =
  match run_picks oracle picks q ev with Some (q', evs) => Some (q', acc ++ evs) | None => None end.
Proof.
  induction picks as [|s picks IH]; intros q acc ev; cbn [run_picks]; [reflexivity|].
  destruct (release oracle s q) as [[q1 e1]|]; [|reflexivity]. now rewrite <- app_assoc.
Qed.

Corollary bind_splits f p picks r evs :
  run_sched oracle picks (bind p f) = Some (PDone r, evs) ->
  exists picks1 picks2 r1 evs1 evs2,
    picks = picks1 ++ picks2 /\ run_sched oracle picks1 p = Some (PDone r1, evs1) /\
    run_sched oracle picks2 (f r1) = Some (PDone r, evs2) /\ evs = evs1 ++ evs2.
Proof.
  intros H. destruct (bind_is_sequential _ _ _ _ _ H) as (p1 & p2 & r1 & evs1 & -> & H1 & q2 & ev2 & Hs & H3).
  rewrite run_picks_acc in H3. exists p1, p2, r1, evs1. unfold run_sched at 2. rewrite Hs.
  destruct (run_picks oracle p2 q2 ev2) as [[q' evs2]|]; [|discriminate]. inversion H3. exists evs2. auto.
Qed.

Corollary bind_log_is_prefixed f p picks r evs :
  run_sched oracle picks (bind p f) = Some (PDone r, evs) ->
  exists picks1 r1 evs1 rest,
    run_sched oracle picks1 p = Some (PDone r1, evs1) /\ evs = evs1 ++ rest.
Proof.
  intros H. destruct (bind_splits _ _ _ _ _ H) as (p1 & p2 & r1 & evs1 & evs2 & _ & H1 & _ & ->).
  exists p1, r1, evs1, evs2. now split.
Qed.

End Confluence.
