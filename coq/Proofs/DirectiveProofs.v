(* The directive-hook model (Model/Directives.v): the engine's reversed wrapping loop nests the hooks in
   declaration order, first declared outermost (wraps_eq_nest); with the tagging hooks of the check a run
   is a fold over the applicable instances (run_hooks_spec); the literal path and the variable path apply
   the same hooks. *)
From Coq Require Import List String.
From TV Require Import Model.Directives.

Open Scope list_scope.

Section Generic.
Variable V E : Type.
Variable impl : dinst -> string -> stage V E -> stage V E.

Lemma fold_right_filter (h : string) (base : stage V E) ds :
  fold_right (fun d f => if has_hook h d then impl d h f else f) base ds =
  fold_right (fun d f => impl d h f) base (filter (has_hook h) ds).
Proof.
  induction ds as [|d ds IH]; cbn [fold_right filter]; [reflexivity|].
  destruct (has_hook h d); now rewrite IH.
Qed.

(* the reversed wrapping loop nests the hooks in declaration order, first declared outermost *)
Lemma wraps_eq_nest ds h base : wraps_with_directives V E impl ds h base = nest V E impl ds h base.
Proof.
  unfold nest. rewrite <- fold_right_filter.
  rewrite <- (rev_involutive ds) at 2. rewrite fold_left_rev_right. reflexivity.
Qed.

(* query-side directives wrapped around the baked (schema-side) resolver *)
Lemma wraps_twice q s h base :
  wraps_with_directives V E impl q h (wraps_with_directives V E impl s h base) = nest V E impl (q ++ s) h base.
Proof.
  rewrite !wraps_eq_nest. unfold nest. now rewrite filter_app, fold_right_app.
Qed.
End Generic.

(* tagging hooks: every applicable hook is invoked exactly once, in declaration order, with its
   own argument; what the next stage sees is what the previous hook produced *)
Lemma nest_tagging h l : forall v log,
  fold_right (fun d f => tagging d h f) ret_stage l v log =
  (fold_left (fun v d => tag (di_name d) v) l v, log ++ map (fun d => (di_name d, h, di_arg d)) l).
Proof.
  induction l as [|d l IH]; intros v log; cbn [fold_right fold_left map].
  - now rewrite app_nil_r.
  - unfold tagging at 1. rewrite IH. now rewrite <- app_assoc.
Qed.

Lemma run_hooks_spec ds h v log :
  run_hooks ds h v log =
  (apply_tags ds h v, log ++ map (fun d => (di_name d, h, di_arg d)) (filter (has_hook h) ds)).
Proof. unfold run_hooks. rewrite wraps_eq_nest. apply nest_tagging. Qed.

Lemma apply_tags_null ds h : apply_tags ds h TNull = TNull.
Proof. unfold apply_tags. induction (filter (has_hook h) ds) as [|d l IH]; [reflexivity|exact IH]. Qed.

(* literal path = variable path, hooks included *)
Lemma literal_coerce_is_input_coerce raw vars : forall q t,
  well_placed raw vars t q -> literal_coerce vars t q = input_coerce t (subst raw q).
Proof.
  fix IH 1. intros q t. destruct q as [s| |n|kvs|xs].
  - reflexivity.
  - reflexivity.
  - intros H. exact H.
  - cbn [well_placed literal_coerce subst input_coerce]. destruct t as [ds|ds fields|it]; try contradiction.
    intros H. f_equal. f_equal.
    induction kvs as [|[k x] r IHr]; [reflexivity|].
    destruct H as [Hx Hr]. destruct (assoc3 k fields) as [[fds ft]|]; [|contradiction].
    rewrite (IH x ft Hx). f_equal. apply IHr. exact Hr.
  - cbn [well_placed literal_coerce subst input_coerce]. destruct t as [ds|ds fields|it]; try contradiction.
    intros H. f_equal.
    induction xs as [|x r IHr]; [reflexivity|].
    destruct H as [Hx Hr]. rewrite (IH x it Hx). f_equal. apply IHr. exact Hr.
Qed.
