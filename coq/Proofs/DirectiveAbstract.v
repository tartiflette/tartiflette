(* Abstract output positions (coercers/outputs/abstract_coercer.py under output_directives_coercer): the
   abstract type's on_pre_output_coercion hooks run on the resolved value, then -- once the runtime object
   type is known -- that object type's hooks, then the object's fields.  This is the object run of the
   concatenated instance list: what harness/c13.py prints for `iobj: Ifc` / `uobjs: [Un]`. *)
From Coq Require Import List String.
From TV Require Import Model.Directives Model.DirectivesOut Proofs.DirectiveProofs Proofs.DirectiveOutProofs.

Open Scope list_scope.

Definition abstract_run (ads ods : list dinst) (fields : list (string * list dinst * oty)) : stage tval tag_event :=
  fun v log => let r := run_hooks ads PRE_OUTPUT v log in output_run (OObject ods fields) (fst r) (snd r).

Lemma apply_tags_app a b h v : apply_tags (a ++ b) h v = apply_tags b h (apply_tags a h v).
Proof. unfold apply_tags. now rewrite filter_app, fold_left_app. Qed.

Lemma events_app a b h : events (a ++ b) h = events a h ++ events b h.
Proof. unfold events. now rewrite filter_app, map_app. Qed.

Theorem abstract_run_is_object_run ads ods fields v log :
  abstract_run ads ods fields v log = output_run (OObject (ads ++ ods) fields) v log.
Proof.
  unfold abstract_run. rewrite run_hooks_spec. cbn [fst snd].
  rewrite !output_run_spec. cbn [output_coerce output_log].
  rewrite apply_tags_app, events_app. now rewrite <- !app_assoc.
Qed.

(* hence: each hook of the abstract type and each hook of the runtime object type is invoked exactly once for
   the value, the abstract type's first, in declaration order *)
Corollary abstract_position_log ads ods fields v log :
  exists rest, snd (abstract_run ads ods fields v log) = log ++ events ads PRE_OUTPUT ++ events ods PRE_OUTPUT ++ rest.
Proof.
  rewrite abstract_run_is_object_run, output_run_spec. cbn [snd output_log]. rewrite events_app.
  eexists. now rewrite <- !app_assoc.
Qed.
