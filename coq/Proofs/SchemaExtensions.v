(* An extension the specification predicate `ext_ok` refuses (unknown target, another kind, a member
   that exists already, a directive the target already carries, a schema directive already there)
   makes the build fail: _validate_extensions reports it, for every SDL model. *)
From Coq Require Import List String Bool.
From TV Require Import Model.Schema Model.SchemaBuild Model.SpecSchema
     Proofs.ValidateProofs Proofs.ListFacts Proofs.BuildFacts.
Import ListNotations.

Open Scope list_scope.

(* a type extension that ext_type_errors lets pass is one the specification accepts: both are the same
   membership tests, the engine's against the wider list of an object's fields with the meta fields *)
Lemma clean_type_extension_ok s g0 n d dirs :
  g_types g0 = all_decls s -> ext_type_errors g0 n d dirs = [] -> ext_ok s (XType n d dirs) = true.
Proof.
  intros Ht. unfold ext_type_errors, ext_ok, field_names, input_names. rewrite Ht.
  destruct (find_tdecl (all_decls s) n) as [t|]; [|discriminate].
  destruct (td_def t), d; try discriminate; cbn [same_kind kind_of String.eqb Ascii.eqb Bool.eqb negb andb]; intros H.
  (* enum, input, interface, union: the flags of the members and of the directives, in either order *)
  2-3, 5-6: apply app_eq_nil in H as [H1 H2]; now rewrite (flags_clean _ _ _ H1), (flags_clean _ _ _ H2).
  - now rewrite (flags_clean _ _ _ H).
  - apply app_eq_nil in H as [H1 H]. apply app_eq_nil in H as [H2 H3].
    rewrite (flags_clean _ _ _ H2), (flags_clean _ _ _ H3), andb_true_r. cbn [andb]. apply flags_clean in H1.
    rewrite forallb_forall in *. intros x Hx. specialize (H1 x Hx). rewrite negb_true_iff, mem_str_false in *.
    intros Hi. apply H1, in_or_app. now left.
Qed.

Definition of_kind (g : gschema) (exts : list ext) (k : string) : list string :=
  flat_map (fun e => match e with
                     | XType n d dirs => if String.eqb (kind_of d) k then ext_type_errors g n d dirs else []
                     | XSchema _ _ => [] end) exts.

Definition schema_step (g : gschema) (acc : list string * list string) (e : ext) : list string * list string :=
  match e with
  | XSchema ops dirs =>
      let '(errs, extended) := acc in
      let (es, x) := schema_ext_ops g ops extended in
      (errs ++ es ++ flat_map (fun d => if mem_str d (g_schema_dirs g) then ["ext-schema-directive-already-there"] else []) dirs, x)
  | _ => acc
  end.

Lemma validate_extensions_unfold g exts :
  validate_extensions g exts =
  of_kind g exts "ENUM" ++ of_kind g exts "INPUT" ++ of_kind g exts "TYPE" ++ of_kind g exts "INTERFACE" ++
  of_kind g exts "SCALAR" ++ of_kind g exts "UNION" ++ fst (fold_left (schema_step g) exts ([], [])).
Proof. reflexivity. Qed.

(* the schema-extension pass only ever adds errors: one `extend schema` that is reported whatever was
   extended before it is reported at the end *)
Lemma schema_fold_hit g exts ops dirs :
  In (XSchema ops dirs) exts ->
  (forall extended, fst (schema_ext_ops g ops extended) ++
                    flat_map (fun d => if mem_str d (g_schema_dirs g) then ["ext-schema-directive-already-there"] else []) dirs <> []) ->
  forall acc, fst (fold_left (schema_step g) exts acc) <> [].
Proof.
  intros Hin Hbad. apply (fold_left_absorbing (schema_step g) (fun acc => fst acc <> []) exts (XSchema ops dirs)); [| |exact Hin].
  - intros [errs x] [|o d]; cbn [schema_step]; [trivial|]. destruct (schema_ext_ops g o x). apply app_nonnil_l.
  - intros [errs x]. cbn [schema_step]. specialize (Hbad x). destruct (schema_ext_ops g ops x). now apply app_nonnil_r.
Qed.

Theorem clean_extensions_ok s g0 :
  initial s = inl g0 -> validate_extensions g0 (s_exts s) = [] -> forallb (ext_ok s) (s_exts s) = true.
Proof.
  intros Hi E. destruct (initial_inl s g0 Hi) as (Ht & Hs). rewrite validate_extensions_unfold in E.
  repeat (apply app_eq_nil in E; destruct E as [? E]).
  apply forallb_forall. intros [n d dirs|ops dirs] Hin.
  - apply (clean_type_extension_ok s g0 n d dirs Ht).
    assert (Hk : of_kind g0 (s_exts s) (kind_of d) = []) by (destruct d; assumption).
    pose proof (proj1 (flat_map_nil_iff _ _) Hk _ Hin) as Hx. cbn beta iota in Hx. now rewrite String.eqb_refl in Hx.
  - cbn [ext_ok]. rewrite <- Hs. apply (flags_clean _ "ext-schema-directive-already-there").
    destruct (flat_map _ dirs) eqn:Ed; [reflexivity|]. contradict E. apply (schema_fold_hit g0 _ ops dirs Hin).
    intros x. rewrite Ed. now apply app_nonnil_r.
Qed.

Theorem invalid_extension_reported s g0 :
  initial s = inl g0 -> v_invalid_extension s = true -> validate_extensions g0 (s_exts s) <> [].
Proof. intros Hi Hbad E. unfold v_invalid_extension in Hbad. now rewrite (clean_extensions_ok s g0 Hi E) in Hbad. Qed.

Theorem build_rejects_invalid_extensions s : v_invalid_extension s = true -> builds s = false.
Proof.
  intros Hbad. destruct (initial s) as [g0|k] eqn:Hi.
  - apply (not_built s g0 Hi). left. now apply invalid_extension_reported.
  - unfold builds, impl_build. now rewrite Hi.
Qed.

Lemma schema_ext_ops_clean g ops : forall extended,
  fst (schema_ext_ops g ops extended) = [] ->
  forall k v, In (k, v) ops -> g_has_type g (op_name_of g k) = false /\ ~ In (op_name_of g k) extended.
Proof.
  induction ops as [|[k0 v0] r IH]; intros extended E k v Hin; [contradiction|].
  cbn [schema_ext_ops] in E. destruct (g_has_type g (op_name_of g k0)) eqn:Hd.
  - destruct (schema_ext_ops g r extended). apply app_eq_nil in E as [_ E]. discriminate.
  - specialize (IH (extended ++ [op_name_of g k0])). destruct (schema_ext_ops g r (extended ++ [op_name_of g k0])).
    apply app_eq_nil in E as [E1 E2]. destruct Hin as [Heq|Hin].
    + injection Heq as -> ->. split; [exact Hd|]. apply mem_str_false. now destruct (mem_str _ extended).
    + destruct (IH E2 k v Hin) as [H1 H2]. split; [exact H1|]. intros Hi. apply H2, in_or_app. now left.
Qed.

Lemma schema_ext_ops_defined g ops extended k v :
  In (k, v) ops -> g_has_type g (op_name_of g k) = true -> fst (schema_ext_ops g ops extended) <> [].
Proof. intros Hin Hdef E. destruct (schema_ext_ops_clean g ops extended E k v Hin). congruence. Qed.

Lemma schema_ext_ops_twice g ops extended k v :
  In (k, v) ops -> In (op_name_of g k) extended -> fst (schema_ext_ops g ops extended) <> [].
Proof. intros Hin Hext E. now destruct (schema_ext_ops_clean g ops extended E k v Hin). Qed.

Theorem schema_operation_redefinition_refused s g0 ops dirs k v :
  initial s = inl g0 -> In (XSchema ops dirs) (s_exts s) -> In (k, v) ops -> g_has_type g0 (op_name_of g0 k) = true ->
  builds s = false.
Proof.
  intros Hi Hin Hk Hdef. apply (not_built s g0 Hi). left. rewrite validate_extensions_unfold. do 6 apply app_nonnil_r.
  apply (schema_fold_hit g0 _ ops dirs Hin). intros x. now apply app_nonnil_l, (schema_ext_ops_defined g0 ops x k v).
Qed.
