(* C16: the parsing cache is transparent.  C17: the registry is a per-name projection. *)
From Coq Require Import List Lia.
From TV Require Import Model.Cache Model.Registry.

Section CacheProofs.
Variable K V : Type.
Variable keq : K -> K -> bool.
Variable f : K -> V.
(* keys that compare equal denote the same request text for the same schema *)
Hypothesis keq_sound : forall a b, keq a b = true -> f a = f b.

Definition cache_inv (c : cache K V) : Prop := Forall (fun kv => snd kv = f (fst kv)) c.

Lemma lookup_inv k c v : cache_inv c -> lookup K V keq k c = Some v -> v = f k.
Proof.
  induction c as [|[k' v'] c IH]; cbn; [discriminate|].
  intros Hinv. pose proof (Forall_inv Hinv) as Hh. pose proof (Forall_inv_tail Hinv) as Ht. cbn in Hh.
  destruct (keq k k') eqn:E.
  - intros H; inversion H; subst. symmetry. now apply keq_sound.
  - now apply IH.
Qed.

Lemma remove_inv k c : cache_inv c -> cache_inv (remove K V keq k c).
Proof.
  induction c as [|[k' v'] c IH]; cbn; intros H; [constructor|].
  pose proof (Forall_inv H) as Hh. pose proof (Forall_inv_tail H) as Ht.
  destruct (keq k k'); [exact Ht|]. constructor; [exact Hh|]. apply IH. exact Ht.
Qed.

Lemma firstn_inv n c : cache_inv c -> cache_inv (firstn n c).
Proof.
  revert c. induction n as [|n IH]; intros [|x c] H; try constructor.
  - exact (Forall_inv H).
  - apply IH. exact (Forall_inv_tail H).
Qed.

Theorem cache_call_transparent cfg k c :
  cache_inv c ->
  fst (cache_call K V keq f cfg k c) = f k /\ cache_inv (snd (cache_call K V keq f cfg k c)).
Proof.
  intros Hinv.
  assert (Hhit : forall v, lookup K V keq k c = Some v -> v = f k /\ cache_inv ((k, v) :: remove K V keq k c)).
  { intros v E. rewrite (lookup_inv _ _ _ Hinv E). split; [reflexivity|]. constructor; [reflexivity|now apply remove_inv]. }
  destruct cfg as [ | |cap]; cbn; [auto| |];
    (destruct (lookup K V keq k c) as [v|]; [now apply Hhit|split; [reflexivity|]]).
  - now constructor.
  - apply firstn_inv. now constructor.
Qed.

(* any request history through any cache configuration gets exactly what the uncached function
   gives, position by position; the invariant holds in every reachable cache state *)
Theorem cache_run_transparent cfg ks : forall c,
  cache_inv c ->
  fst (cache_run K V keq f cfg ks c) = map f ks /\ cache_inv (snd (cache_run K V keq f cfg ks c)).
Proof.
  induction ks as [|k ks IH]; intros c Hinv; cbn; [auto|].
  destruct (cache_call_transparent cfg k c Hinv) as [Hv Hc]. destruct (cache_call K V keq f cfg k c) as [v c1].
  destruct (IH c1 Hc) as [Hvs Hc2]. destruct (cache_run K V keq f cfg ks c1) as [vs c2]. cbn in *. now subst.
Qed.

Theorem lru_bounded cap k c :
  List.length c <= cap -> List.length (snd (cache_call K V keq f (CacheLru cap) k c)) <= cap.
Proof.
  intros H. cbn. destruct (lookup K V keq k c) as [v|] eqn:E; cbn [snd].
  - assert (Hr : List.length (remove K V keq k c) < List.length c).
    { clear H. induction c as [|[k' v'] c IH]; cbn in *; [discriminate|].
      destruct (keq k k'); [lia|]. specialize (IH E). cbn. lia. }
    cbn. lia.
  - rewrite firstn_length. lia.
Qed.

End CacheProofs.

Section RegistryProofs.
Variable Impl Sdl : Type.
Notation registry := (registry Impl Sdl).
Notation reg_op := (reg_op Impl Sdl).

Lemma get_set n m e (r : registry) :
  get Impl Sdl n (set Impl Sdl m e r) = if String.eqb n m then e else get Impl Sdl n r.
Proof.
  induction r as [|[n' e'] r IH]; cbn.
  - reflexivity.
  - destruct (String.eqb m n') eqn:Emn; cbn.
    + apply String.eqb_eq in Emn; subst n'.
      destruct (String.eqb n m); reflexivity.
    + destruct (String.eqb n n') eqn:Enn.
      * apply String.eqb_eq in Enn; subst n'.
        destruct (String.eqb n m) eqn:E; [|reflexivity].
        apply String.eqb_eq in E; subst m. rewrite String.eqb_refl in Emn. discriminate.
      * apply IH.
Qed.

Lemma step_other n (r : registry) (o : reg_op) :
  String.eqb (op_schema Impl Sdl o) n = false ->
  get Impl Sdl n (fst (reg_step Impl Sdl r o)) = get Impl Sdl n r.
Proof.
  intros H. destruct o as [m it|m sdl|m]; cbn in *.
  - destruct (already Impl it _); cbn; [reflexivity|].
    rewrite get_set. rewrite String.eqb_sym, H. reflexivity.
  - rewrite get_set. rewrite String.eqb_sym, H. reflexivity.
  - reflexivity.
Qed.

Lemma step_same n (r r' : registry) (o : reg_op) :
  String.eqb (op_schema Impl Sdl o) n = true ->
  get Impl Sdl n r = get Impl Sdl n r' ->
  snd (reg_step Impl Sdl r o) = snd (reg_step Impl Sdl r' o) /\
  get Impl Sdl n (fst (reg_step Impl Sdl r o)) = get Impl Sdl n (fst (reg_step Impl Sdl r' o)).
Proof.
  intros H Hg. apply String.eqb_eq in H.
  destruct o as [m it|m sdl|m]; cbn in *; subst m; rewrite Hg.
  - destruct (already Impl it _); cbn; [auto|]. rewrite !get_set, String.eqb_refl. auto.
  - rewrite !get_set, String.eqb_refl. auto.
  - auto.
Qed.

(* Whatever else is registered or cooked in the process, in any interleaving, the operations
   about schema name n observe exactly what they observe when run alone. *)
Theorem registry_projection n (ops : list reg_op) : forall (r r' : registry),
  get Impl Sdl n r = get Impl Sdl n r' ->
  outs_of Impl Sdl n ops (snd (reg_run Impl Sdl r ops)) =
  snd (reg_run Impl Sdl r' (filter (fun o => String.eqb (op_schema Impl Sdl o) n) ops)).
Proof.
  induction ops as [|o ops IH]; intros r r' Hg; cbn; [reflexivity|].
  destruct (String.eqb (op_schema Impl Sdl o) n) eqn:En; cbn.
  - destruct (step_same n r r' o En Hg) as [Ho Hn].
    destruct (reg_step Impl Sdl r o) as [r1 out], (reg_step Impl Sdl r' o) as [r1' out']. cbn in Ho, Hn.
    specialize (IH r1 r1' Hn). destruct (reg_run Impl Sdl r1 ops), (reg_run Impl Sdl r1' _). cbn in *. now f_equal.
  - pose proof (step_other n r o En) as Hn. destruct (reg_step Impl Sdl r o) as [r1 out].
    specialize (IH r1 r' (eq_trans Hn Hg)). now destruct (reg_run Impl Sdl r1 ops).
Qed.

End RegistryProofs.
