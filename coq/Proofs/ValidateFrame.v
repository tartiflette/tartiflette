(* What the parts of the validation walk below a selection leave alone, and the shape of the walk over a
   selection tree: the loops nested in walk_value / walk_selection are the list-level functions. *)
From Coq Require Import List String Bool.
From RecordUpdate Require Import RecordSet.
From TV Require Import Model.Schema Model.ImplValidate Proofs.ListFacts.
Import ListNotations RecordSetNotations.

Section LitInd.
Variable P : lit -> Prop.
Hypothesis HVar : forall l n, P (LVar l n).
Hypothesis HInt : forall l v, P (LInt l v).
Hypothesis HFloat : forall l v, P (LFloat l v).
Hypothesis HStr : forall l s, P (LStr l s).
Hypothesis HBool : forall l b, P (LBool l b).
Hypothesis HNull : forall l, P (LNull l).
Hypothesis HEnum : forall l s, P (LEnum l s).
Hypothesis HList : forall l items, Forall P items -> P (LList l items).
Hypothesis HObj : forall l fields, Forall (fun kv => P (snd kv)) fields -> P (LObj l fields).
Fixpoint lit_ind2 (v : lit) : P v :=
  match v with
  | LVar l n => HVar l n | LInt l x => HInt l x | LFloat l x => HFloat l x | LStr l s => HStr l s
  | LBool l b => HBool l b | LNull l => HNull l | LEnum l s => HEnum l s
  | LList l items =>
      HList l items ((fix go (xs : list lit) : Forall P xs :=
                        match xs with [] => Forall_nil _ | x :: r => Forall_cons _ (lit_ind2 x) (go r) end) items)
  | LObj l fields =>
      HObj l fields ((fix go (xs : list (string * lit)) : Forall (fun kv => P (snd kv)) xs :=
                        match xs with [] => Forall_nil _ | (k, x) :: r => Forall_cons (k, x) (lit_ind2 x) (go r) end) fields)
  end.
End LitInd.

(* Nested induction on selections.  Each fact about walk_selection comes in three lemmas: X_of for a list of
   selections given the fact for its members (the step of the induction), X for one selection, Xs for a list. *)
Section SelInd.
Variable P : selection -> Prop.
Hypothesis HField : forall l alias name args dirs sels, Forall P sels -> P (SField l alias name args dirs sels).
Hypothesis HSpread : forall l name dirs, P (SSpread l name dirs).
Hypothesis HInline : forall l tc dirs sels, Forall P sels -> P (SInline l tc dirs sels).
Fixpoint selection_ind2 (s : selection) : P s :=
  match s with
  | SField l alias name args dirs sels =>
      HField l alias name args dirs sels
        ((fix go xs : Forall P xs := match xs with [] => Forall_nil _ | x :: r => Forall_cons _ (selection_ind2 x) (go r) end) sels)
  | SSpread l name dirs => HSpread l name dirs
  | SInline l tc dirs sels =>
      HInline l tc dirs sels
        ((fix go xs : Forall P xs := match xs with [] => Forall_nil _ | x :: r => Forall_cons _ (selection_ind2 x) (go r) end) sels)
  end.
End SelInd.

Definition walk_fields (path : opath) (fields : list (string * lit)) (st : vctx) : vctx :=
  fold_left (fun st kv => walk_value path (snd kv) st) fields st.

(* the loop over list items is fold_left by conversion; the loop over object fields matches on the pair inside the
   recursive call, which `snd` does not, hence the induction *)
Lemma walk_value_obj path l fields st :
  walk_value path (LObj l fields) st =
  match fields with
  | [] => st
  | _ => emit_ok (uniq_errors "input-object-field-uniqueness" fst (fun kv => lit_loc (snd kv)) path fields)
                 (walk_fields path fields st)
  end.
Proof.
  assert (H : forall st0, (fix go (xs : list (string * lit)) (st : vctx) : vctx :=
               match xs with [] => st | (_, x) :: r => go r (walk_value path x st) end) fields st0 = walk_fields path fields st0).
  { induction fields as [|[k x] r IH]; intros st0; [reflexivity|apply IH]. }
  cbn [walk_value]. rewrite H. destruct fields; reflexivity.
Qed.

Section Frame.
Variable V : vschema.

(* walk_selection on a field and on an inline fragment, with its nested loop named: it is walk_selections, by conversion *)
Lemma walk_selection_field path l alias name args dirs sels st :
  walk_selection V path (SField l alias name args dirs sels) st =
  let path' := path_push path name in
  let st1 := st <| parent_type := field_type_name V (parent_type st) name |> <| in_directive := false |>
                <| cur_field := (show_opt (parent_type st) ++ "." ++ name)%string |> in
  let st4 := walk_selections V path' sels (walk_directives V path' dirs (walk_arguments path' args st1)) in
  field_rules V path' l name args dirs (match sels with [] => false | _ => true end) (st4 <| parent_type := parent_type st |>).
Proof. reflexivity. Qed.

Lemma walk_selection_inline path l tc dirs sels st :
  walk_selection V path (SInline l tc dirs sels) st =
  let st1 := match tc with Some t => st <| parent_type := Some t |> | None => st end in
  let st3 := walk_selections V path sels (walk_directives V path dirs st1) in
  let st4 := emit_ok (valid_locations_errors V path "INLINE_FRAGMENT" l dirs) st3 in
  let st5 := emit_ok (match tc with
                      | Some t => if has_type V t then [] else [mkerr "fragment-spread-type-existence" path [l]]
                      | None => [] end) st4 in
  let st6 := emit_ok (match tc with
                      | Some t => match vfind_type V t with
                                  | Some d => if is_composite_def d then [] else [mkerr "fragments-on-composite-types" path [l]]
                                  | None => [] end
                      | None => [] end) st5 in
  st6 <| inlined_in ::= upd_assoc opt_str_eqb (parent_type st) [] (fun x => x ++ [(tc, l)]) |> <| parent_type := parent_type st |>.
Proof. reflexivity. Qed.

(* emit touches the verdict only: books_of is the state with the verdict erased *)
Definition books_of (st : vctx) : vctx := st <| errs := [] |> <| aborted := false |> <| crashed := false |>.

Lemma emit_books_of b r st : books_of (emit b r st) = books_of st.
Proof.
  unfold emit. destruct (aborted st || crashed st); [reflexivity|]. destruct r as [es|]; [|reflexivity].
  destruct (b && negb match es with [] => true | _ :: _ => false end); reflexivity.
Qed.

(* what parts of the walk leave alone: values and arguments everything but the verdict and per_op / per_frag (inner);
   directives, the rules of a field and variable definitions also not the directive flags and the variable-definition
   flag (outer).  A selection leaves less alone: it records spreads and inline fragments. *)
Definition inner (st : vctx) : vctx := books_of st <| per_op := [] |> <| per_frag := [] |>.
Definition outer (st : vctx) : vctx :=
  inner st <| in_directive := false |> <| cur_directive := "" |> <| in_vardefs := false |>.

Lemma inner_outer st st' : inner st' = inner st -> outer st' = outer st.
Proof. intros H. unfold outer. now rewrite H. Qed.

Lemma outer_parent_type st st' : outer st' = outer st -> parent_type st' = parent_type st.
Proof. exact (f_equal parent_type (x := outer st') (y := outer st)). Qed.
Lemma outer_inlined_in st st' : outer st' = outer st -> inlined_in st' = inlined_in st.
Proof. exact (f_equal inlined_in (x := outer st') (y := outer st)). Qed.
Lemma outer_spreaded_in st st' : outer st' = outer st -> spreaded_in st' = spreaded_in st.
Proof. exact (f_equal spreaded_in (x := outer st') (y := outer st)). Qed.
Lemma outer_frag_spreads st st' : outer st' = outer st -> frag_spreads st' = frag_spreads st.
Proof. exact (f_equal frag_spreads (x := outer st') (y := outer st)). Qed.

Lemma emit_inner b r st : inner (emit b r st) = inner st.
Proof. exact (f_equal inner (emit_books_of b r st)). Qed.
Lemma upd_scope_inner f st : inner (upd_scope f st) = inner st.
Proof. unfold upd_scope. destruct (in_operation st); reflexivity. Qed.

Lemma walk_value_inner path v : forall st, inner (walk_value path v st) = inner st.
Proof.
  induction v as [l n| | | | | | |l items IH|l fields IH] using lit_ind2; intros st; try reflexivity.
  - unfold walk_value, record_var. destruct (in_vardefs st); [reflexivity|apply upd_scope_inner].
  - apply fold_left_inv. intros a x Hx. exact (proj1 (Forall_forall _ _) IH x Hx a).
  - rewrite walk_value_obj. destruct fields as [|kv r]; [reflexivity|]. unfold emit_ok. rewrite emit_inner.
    apply fold_left_inv. intros a x Hx. exact (proj1 (Forall_forall _ _) IH x Hx a).
Qed.

Lemma walk_argument_inner path a st : inner (walk_argument path a st) = inner st.
Proof.
  unfold walk_argument. destruct (a_value a) eqn:E; try apply walk_value_inner.
  rewrite upd_scope_inner. apply walk_value_inner.
Qed.

Lemma emit_outer b r st : outer (emit b r st) = outer st.
Proof. apply inner_outer, emit_inner. Qed.
Lemma emit_ok_outer es st : outer (emit_ok es st) = outer st.
Proof. apply emit_outer. Qed.
Lemma upd_scope_outer f st : outer (upd_scope f st) = outer st.
Proof. apply inner_outer, upd_scope_inner. Qed.
Lemma walk_value_outer path v st : outer (walk_value path v st) = outer st.
Proof. apply inner_outer, walk_value_inner. Qed.
Lemma walk_argument_outer path a st : outer (walk_argument path a st) = outer st.
Proof. apply inner_outer, walk_argument_inner. Qed.
Lemma walk_arguments_outer path args st : outer (walk_arguments path args st) = outer st.
Proof.
  unfold walk_arguments. destruct args as [|a r]; [reflexivity|]. rewrite emit_ok_outer.
  apply fold_left_inv. intros. apply walk_argument_outer.
Qed.
Lemma walk_directive_outer path d st : outer (walk_directive V path d st) = outer st.
Proof.
  unfold walk_directive. rewrite !emit_ok_outer, emit_outer.
  set (st1 := st <| in_directive := true |> <| cur_directive := d_name d |>).
  transitivity (outer (walk_arguments path (dir_args d) st1)); [reflexivity|]. now rewrite walk_arguments_outer.
Qed.
Lemma walk_directives_outer path ds st : outer (walk_directives V path ds st) = outer st.
Proof.
  unfold walk_directives. destruct ds as [|d r]; [reflexivity|]. rewrite emit_ok_outer.
  apply fold_left_inv. intros. apply walk_directive_outer.
Qed.
Lemma field_rules_outer path l name args dirs hs st : outer (field_rules V path l name args dirs hs st) = outer st.
Proof. unfold field_rules. now rewrite !emit_ok_outer, emit_outer, !emit_ok_outer. Qed.
Lemma walk_vardef_outer vd st : outer (walk_vardef V vd st) = outer st.
Proof. unfold walk_vardef. rewrite emit_ok_outer. destruct (v_default vd); [apply walk_value_outer|reflexivity]. Qed.
Lemma walk_vardefs_outer vds st : outer (walk_vardefs V vds st) = outer st.
Proof.
  unfold walk_vardefs. destruct vds as [|vd r]; [reflexivity|]. rewrite emit_ok_outer.
  set (st1 := st <| in_vardefs := true |>).
  transitivity (outer (fold_left (fun st vd => walk_vardef V vd st) (vd :: r) st1)); [reflexivity|].
  now rewrite (fold_left_inv outer (fun st vd => walk_vardef V vd st) (vd :: r) (fun a x _ => walk_vardef_outer x a)).
Qed.

End Frame.
