(* The structural tie to the source: the rule invocations, RULE_SET and the schema validator lists
   extracted from /repo's CURRENT source (Gen/Wiring_gen.v, regenerated on every run) are the ones
   the models transcribe.  Deleting or moving a `validators.validate(...)` call, changing an abort
   flag, or dropping a `_validate_*` method from the lists breaks one of these obligations. *)
From Coq Require Import List Bool.
From TV Require Import Model.ImplValidate Model.SchemaBuild Gen.Wiring_gen.

Lemma call_sites_are_the_models : src_call_sites = model_call_sites.
Proof. reflexivity. Qed.

Lemma aborting_rules_are_the_models :
  map fst (filter snd src_rule_set) = model_aborting_rules.
Proof. reflexivity. Qed.

Lemma every_supported_rule_is_registered_and_invoked :
  forallb (fun r => existsb (fun kv => String.eqb (fst kv) r) src_rule_set &&
                    existsb (fun fr => String.eqb (snd fr) r) src_call_sites) supported_rules = true.
Proof. vm_compute. reflexivity. Qed.

Lemma every_invoked_rule_is_registered :
  forallb (fun fr => existsb (fun kv => String.eqb (fst kv) (snd fr)) src_rule_set) src_call_sites = true.
Proof. vm_compute. reflexivity. Qed.

Lemma schema_validators_are_the_models : src_schema_validators = model_schema_validators.
Proof. reflexivity. Qed.
Lemma extension_validators_are_the_models : src_extension_validators = model_extension_validators.
Proof. reflexivity. Qed.
Lemma bake_steps_are_the_models : src_bake_steps = model_bake_steps.
Proof. reflexivity. Qed.
