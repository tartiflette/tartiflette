(* What __schema / __type (Model/Introspect.v) report of a built schema: exactly the defined type names not
   starting with "__" (extensions never add or remove a type), the same entry by name, the objects
   declaring an interface, the declared fields that are neither injected nor hidden. *)
From Coq Require Import List String Bool.
From TV Require Import Model.Schema Model.SchemaBuild Model.Introspect Proofs.ListFacts Proofs.BuildFacts.

Lemma type_info_name g t : it_name (type_info g t) = td_name t.
Proof. unfold type_info. destruct (td_def t); reflexivity. Qed.

(* nothing missing, nothing extra: the reported type names are exactly the defined ones that do not
   start with two underscores *)
Lemma introspect_type_names g :
  map it_name (introspect_types g) = filter (fun n => negb (prefix "__" n)) (map td_name (g_types g)).
Proof.
  unfold introspect_types. induction (g_types g) as [|t ts IH]; [reflexivity|].
  cbn [filter map]. destruct (negb (prefix "__" (td_name t))); cbn [map]; [rewrite type_info_name|]; now rewrite IH.
Qed.

Lemma upd_tdecl_names ts n f : (forall t, td_name (f t) = td_name t) -> map td_name (upd_tdecl ts n f) = map td_name ts.
Proof.
  intros Hf. induction ts as [|t ts IH]; [reflexivity|]. cbn [upd_tdecl].
  destruct (String.eqb n (td_name t)); cbn [map]; [now rewrite Hf|now rewrite IH].
Qed.
Lemma apply_ext_names g e : map td_name (g_types (apply_ext g e)) = map td_name (g_types g).
Proof. destruct e; [apply upd_tdecl_names; reflexivity|reflexivity]. Qed.
Lemma apply_exts_names exts : forall g, map td_name (g_types (fold_left apply_ext exts g)) = map td_name (g_types g).
Proof. induction exts as [|e r IH]; intros g; [reflexivity|]. cbn [fold_left]. now rewrite IH, apply_ext_names. Qed.

Theorem built_type_names s g :
  impl_build s = Built g ->
  map it_name (introspect_types g) =
  filter (fun n => negb (prefix "__" n)) (map td_name (s_types s ++ builtin_types)).
Proof.
  intros H. destruct (impl_build_Built s g H) as (g0 & Hi & _ & -> & _).
  rewrite introspect_type_names, apply_exts_names. now destruct (initial_inl s g0 Hi) as [-> _].
Qed.

Lemma find_tdecl_some ts n t : find_tdecl ts n = Some t -> In t ts /\ td_name t = n.
Proof.
  induction ts as [|x ts IH]; cbn [find_tdecl]; [discriminate|].
  destruct (String.eqb n (td_name x)) eqn:E.
  - intros H. inversion H; subst. apply String.eqb_eq in E. split; [now left|now symmetry].
  - intros H. destruct (IH H). split; [now right|assumption].
Qed.

Theorem type_by_name_agrees g n ti :
  introspect_type g n = Some ti -> prefix "__" n = false ->
  In ti (introspect_types g) /\ it_name ti = n.
Proof.
  unfold introspect_type. destruct (find_tdecl (g_types g) n) as [t|] eqn:E; [|discriminate].
  intros H Hp. inversion H. destruct (find_tdecl_some _ _ _ E) as [Hi Hn]. split.
  - apply in_map. apply filter_In. split; [exact Hi|]. now rewrite Hn, Hp.
  - now rewrite type_info_name.
Qed.

Theorem type_by_name_unknown g n : g_has_type g n = false -> introspect_type g n = None.
Proof. unfold g_has_type, introspect_type. destruct (find_tdecl (g_types g) n); [discriminate|reflexivity]. Qed.

Theorem include_deprecated_filters fs f :
  In f (without_deprecated fs) <-> In f fs /\ if_deprecated f = false.
Proof. unfold without_deprecated. rewrite filter_In, negb_true_iff. reflexivity. Qed.

(* possibleTypes of an interface: exactly the objects declaring it *)
Theorem possible_types_exact g i o :
  In o (g_implementers g i) <->
  exists t ifs fs, In t (g_types g) /\ td_name t = o /\ td_def t = DObject ifs fs /\ In i ifs.
Proof.
  unfold g_implementers. rewrite in_flat_map. split.
  - intros (t & Ht & Ho). destruct (td_def t) as [| | |ifs fs| |] eqn:E; try destruct Ho.
    destruct (mem_str i ifs) eqn:Em; [|destruct Ho]. destruct Ho as [<-|[]].
    exists t, ifs, fs. repeat split; try assumption. now apply mem_str_iff.
  - intros (t & ifs & fs & Ht & Hn & Hd & Hi). exists t. split; [exact Ht|]. rewrite Hd.
    apply mem_str_iff in Hi. rewrite Hi. now left.
Qed.

(* hidden and injected fields are never reported; everything else is *)
Theorem reported_fields_exact g tn fs name :
  In name (map if_name (fields_of_type g tn fs)) <->
  exists f, In f fs /\ fd_name f = name /\ prefix "__" name = false /\ hidden g tn name = false.
Proof.
  rewrite in_map_iff. split.
  - intros (x & Hx & Hi). apply in_flat_map in Hi. destruct Hi as (f & Hf & Hi).
    destruct (prefix "__" (fd_name f) || hidden g tn (fd_name f)) eqn:E; [destruct Hi|].
    destruct Hi as [<-|[]]. subst. apply orb_false_iff in E. exists f. auto.
  - intros (f & Hf & Hn & Hp & Hh). subst.
    exists {| if_name := fd_name f; if_args := map (arg_of g) (fd_args f); if_type := ref_of g (fd_type f);
              if_deprecated := deprecated g tn (fd_name f) |}.
    split; [reflexivity|]. apply in_flat_map. exists f. split; [exact Hf|]. rewrite Hp, Hh. now left.
Qed.
