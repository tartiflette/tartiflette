(* The WHOLE chain of root fields of a mutation, under every schedule of the nested resolvers:
   the log of `sequence_abort [(k1,p1); ...; (kn,pn)]` is the concatenation, in document order, of
   complete logs of p1, p2, ... (each under a schedule of its own), the chain stops at the first
   root field that raises, and the result lists the keys of the completed ones in document order.
   (Proofs/AsyncProofs.v has the binary statements, `bind_splits` and `bind_log_is_prefixed`; this
   file lifts them to the list by induction.) *)
From Coq Require Import List String.
From TV Require Import Py.Prelude Model.ImplExec Model.Async Proofs.AsyncProofs.
Import ListNotations.

Section SerialChain.
Variable oracle : site -> string -> string -> pyval -> list (string * pyval) -> uret.

Lemma run_picks_done : forall picks r acc q evs,
  run_picks oracle picks (PDone r) acc = Some (q, evs) -> picks = [] /\ q = PDone r /\ evs = acc.
Proof.
  intros [|s picks] r acc q evs.
  - intros E; inversion E; auto.
  - discriminate.
Qed.

Lemma run_sched_ret picks r q evs :
  run_sched oracle picks (Ret r) = Some (q, evs) -> picks = [] /\ q = PDone r /\ evs = [].
Proof. apply run_picks_done. Qed.

Lemma run_sched_fmap p f g picks r evs :
  (forall x, f x = Ret (g x)) ->
  run_sched oracle picks (bind p f) = Some (PDone r, evs) ->
  exists r1, run_sched oracle picks p = Some (PDone r1, evs) /\ r = g r1.
Proof.
  intros Hf H. apply bind_splits in H. destruct H as (p1 & p2 & r1 & evs1 & evs2 & -> & H1 & H2 & ->).
  rewrite Hf in H2. apply run_sched_ret in H2. destruct H2 as (-> & E & ->). inversion E.
  exists r1. now rewrite !app_nil_r.
Qed.

Definition chain_result (key : string) (o : option pyval) (r' : res) : res :=
  match r' with
  | RKVs kv => RKVs (match o with Some v => (key, v) :: kv | None => kv end)
  | other => other
  end.

(* the specification of a serial run of the chain: one entry per root field that ran, in document
   order -- its key, its result and its complete log under a schedule of its own *)
Definition outcome1 := (string * res * list event)%type.

Inductive serial_run : list (string * prog) -> list outcome1 -> Prop :=
| SR_nil : serial_run [] []
| SR_stop key p rest picks r evs :
    run_sched oracle picks p = Some (PDone r, evs) ->
    (forall o, r <> ROpt o) ->
    serial_run ((key, p) :: rest) [(key, r, evs)]
| SR_cont key p rest picks o evs outs :
    run_sched oracle picks p = Some (PDone (ROpt o), evs) ->
    serial_run rest outs ->
    serial_run ((key, p) :: rest) ((key, ROpt o, evs) :: outs).

Fixpoint chain_value (outs : list outcome1) : res :=
  match outs with
  | [] => RKVs []
  | (key, ROpt o, _) :: rest => chain_result key o (chain_value rest)
  | (_, r, _) :: _ => r
  end.

Definition chain_log (outs : list outcome1) : list event := flat_map snd outs.

Theorem chain_is_serial : forall kps picks r evs,
  run_sched oracle picks (sequence_abort kps) = Some (PDone r, evs) ->
  exists outs, serial_run kps outs /\ r = chain_value outs /\ evs = chain_log outs.
Proof.
  (* bind_splits peels the first link; a result that is not ROpt ends the chain (SR_stop), otherwise what follows
     only maps chain_result over the run of the rest (run_sched_fmap) *)
  induction kps as [|[key p] rest IH]; intros picks r evs H.
  - apply run_sched_ret in H. destruct H as (_ & E & ->). inversion E. exists []. repeat split. constructor.
  - apply bind_splits in H. destruct H as (p1 & p2 & r1 & evs1 & evs' & _ & H1 & H2 & ->).
    destruct r1 as [v|o|kv|l|e];
      try (apply run_sched_ret in H2; destruct H2 as (_ & E & ->); inversion E;
           eexists [(key, _, evs1)]; split; [eapply SR_stop; [exact H1|discriminate]|];
           split; [reflexivity|]; cbn; now rewrite !app_nil_r).
    apply (run_sched_fmap _ _ (chain_result key o)) in H2; [|now intros []].
    destruct H2 as (r3 & H2 & ->). destruct (IH _ _ _ H2) as (outs & Hsr & -> & ->).
    exists ((key, ROpt o, evs1) :: outs). split; [eapply SR_cont; eassumption|]. split; reflexivity.
Qed.

Definition out_key (o : outcome1) : string := fst (fst o).
Definition out_res (o : outcome1) : res := snd (fst o).

(* the log of a serial run is the entries' logs one after the other (that a run of the chain has
   such a log is chain_is_serial) *)
Theorem chain_log_split front o back :
  chain_log (front ++ o :: back) = chain_log front ++ snd o ++ chain_log back.
Proof. unfold chain_log. rewrite flat_map_app. reflexivity. Qed.

Theorem chain_then_is_serial kps finish picks r evs :
  run_sched oracle picks (bind (sequence_abort kps) finish) = Some (PDone r, evs) ->
  exists outs tail, serial_run kps outs /\ evs = chain_log outs ++ tail.
Proof.
  intros H. apply bind_log_is_prefixed in H. destruct H as (p1 & r1 & evs1 & tail & H1 & ->).
  apply chain_is_serial in H1. destruct H1 as (outs & Hs & _ & ->). eauto.
Qed.

End SerialChain.
