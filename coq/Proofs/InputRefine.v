(* The implementation model of variable coercion (coercer chains folded from the peeled
   wrapper list, accumulator-style merge loops) equals the specification model (direct
   recursion on the type, declarative error collection). *)
From Coq Require Import ZArith List String Bool.
From TV Require Import Py.Prelude Model.Schema Model.ImplInput Model.SpecInput Proofs.ListFacts.
Import ListNotations.

Open Scope list_scope.

(* The induction that fits every function recursing on fuel outside (spent at a named type) and on
   the type inside: spec_coerce, spec_literal, lit_vars_typed. *)
Lemma fuel_ty_ind (P : nat -> ty -> Prop) :
  (forall n, P O (TNamed n)) ->
  (forall fuel n, (forall t, P fuel t) -> P (S fuel) (TNamed n)) ->
  (forall fuel t, P fuel t -> P fuel (TList t)) ->
  (forall fuel t, P fuel t -> P fuel (TNonNull t)) ->
  forall fuel t, P fuel t.
Proof. induction fuel; induction t; auto. Qed.

Section Refine.
Variable sch : schema.

Lemma get_input_coercer_list fuel t :
  get_input_coercer sch fuel (TList t) = in_list_coercer (get_input_coercer sch fuel t).
Proof. unfold get_input_coercer. cbn [peel]. now destruct (peel t). Qed.

Lemma get_input_coercer_nonnull fuel t :
  get_input_coercer sch fuel (TNonNull t) = in_non_null_coercer (get_input_coercer sch fuel t).
Proof. unfold get_input_coercer. cbn [peel]. now destruct (peel t). Qed.

Lemma spec_coerce_nonnull fuel t p v :
  spec_coerce sch fuel (TNonNull t) p v =
  if is_none v then Ok (PNone, [(ENonNullNull, p)]) else spec_coerce sch fuel t p v.
Proof. destruct fuel; reflexivity. Qed.

Lemma spec_coerce_list fuel t p v :
  spec_coerce sch fuel (TList t) p v =
  if is_none v then Ok (PNone, [])
  else match v with
       | PList items => bind (coerce_items (spec_coerce sch fuel t) p 0%Z items)
                             (fun rs => Ok (collect rs PList))
       | _ => bind (spec_coerce sch fuel t p v) (fun r => Ok (wrap_single r))
       end.
Proof. destruct fuel; reflexivity. Qed.

Lemma spec_coerce_named_O n p v : spec_coerce sch 0 (TNamed n) p v = Raise OutOfFuel.
Proof. reflexivity. Qed.

(* the specification's three ways of finishing a result are all mk_cres *)
Lemma collect_mk rs mk : collect rs mk = mk_cres (mk (map fst rs)) (all_errors rs).
Proof. unfold collect. now destruct (all_errors rs). Qed.

Lemma wrap_single_mk r : wrap_single r = mk_cres (PList [fst r]) (snd r).
Proof. unfold wrap_single. now destruct (snd r). Qed.

Lemma finish_object_mk fields path kv rs :
  finish_object fields path kv rs =
  mk_cres (PDict (map (fun r => (fst r, fst (snd r))) (present_of rs)))
          (all_errors (map snd (present_of rs)) ++ unknown_of fields path kv).
Proof. unfold finish_object. now destruct (_ ++ _). Qed.

Lemma mk_cres_errs v w es : es <> [] -> mk_cres v es = mk_cres w es.
Proof. destruct es; [congruence|reflexivity]. Qed.

(* a CoercionResult never carries a value together with errors *)
Definition value_xor_errors (r : cres) : Prop := snd r <> [] -> fst r = PNone.

Lemma mk_cres_normal v es : value_xor_errors (mk_cres v es).
Proof. unfold value_xor_errors. destruct es; cbn; congruence. Qed.

Lemma mk_cres_id (r : cres) : value_xor_errors r -> mk_cres (fst r) (snd r) = r.
Proof. destruct r as [v [|e es]]; cbn; intros H; [reflexivity|]. now rewrite H. Qed.

(* the accumulator loops, up to mk_cres: what they hold in `vals` once an error is in is never looked at *)
Lemma merge_list_mk mk rs : forall vals errs,
  mk_cres (mk (fst (merge_list rs vals errs))) (snd (merge_list rs vals errs)) =
  mk_cres (mk (vals ++ map fst rs)) (errs ++ all_errors rs).
Proof.
  induction rs as [|[v es] rs IH]; intros vals errs; cbn [merge_list map all_errors flat_map fst snd].
  - now rewrite !app_nil_r.
  - destruct es as [|e es].
    + destruct errs; rewrite IH; [now rewrite <- app_assoc|reflexivity].
    + rewrite IH, <- app_assoc. now destruct errs.
Qed.

Definition in_outcome_of (o : option cres) : in_field_outcome :=
  match o with Some r => IRes r | None => IUndef end.
Definition in_outcomes_of (rs : list (string * option cres)) : list (string * in_field_outcome) :=
  map (fun p => (fst p, in_outcome_of (snd p))) rs.

Lemma obj_merge_in_mk rs tail : forall vals errs,
  mk_cres (PDict (fst (obj_merge_in (in_outcomes_of rs) vals errs))) (snd (obj_merge_in (in_outcomes_of rs) vals errs) ++ tail) =
  mk_cres (PDict (vals ++ map (fun r => (fst r, fst (snd r))) (present_of rs)))
          (errs ++ all_errors (map snd (present_of rs)) ++ tail).
Proof.
  induction rs as [|[n [[v es]|]] rs IH]; intros vals errs;
    cbn [in_outcomes_of map obj_merge_in fst snd in_outcome_of present_of flat_map app all_errors].
  - now rewrite app_nil_r.
  - destruct es as [|e es].
    + destruct errs; rewrite IH; [now rewrite <- app_assoc|reflexivity].
    + rewrite IH, <- !app_assoc. now destruct errs.
  - apply IH.
Qed.

Lemma map_res_enumerate (f : list pkey -> pyval -> res cres) path items : forall i,
  map_res (fun ix => f (path ++ [KIdx (fst ix)]) (snd ix)) (enumerate_from i items) =
  coerce_items f path i items.
Proof.
  induction items as [|x xs IH]; intros i; cbn [enumerate_from map_res coerce_items fst snd]; [reflexivity|].
  now rewrite IH.
Qed.

Lemma coerce_items_ext f g path : (forall p v, f p v = g p v) ->
  forall items i, coerce_items f path i items = coerce_items g path i items.
Proof.
  intros H. induction items as [|x xs IH]; intros i; cbn [coerce_items]; [reflexivity|].
  now rewrite H, IH.
Qed.

Lemma coerce_fields_map_res cf fs :
  coerce_fields cf fs = map_res (fun f => bind (cf f) (fun o => Ok (in_name f, o))) fs.
Proof. induction fs as [|f fs IH]; cbn [coerce_fields map_res]; [reflexivity|]. rewrite IH. now destruct (cf f). Qed.

(* the coercer chain built by get_input_coercer is CoerceValue *)
Theorem input_coercer_refines_spec : forall fuel t p v,
  get_input_coercer sch fuel t p v = spec_coerce sch fuel t p v.
Proof.
  apply (fuel_ty_ind (fun fuel t => forall p v, get_input_coercer sch fuel t p v = spec_coerce sch fuel t p v)).
  - reflexivity.
  - intros fuel n IH p v. change (input_leaf sch (S fuel) n p v = spec_coerce sch (S fuel) (TNamed n) p v).
    cbn [input_leaf spec_coerce].
    destruct (find_type sch n) as [[ |values|fields|ifs fs|fs|ms]|]; try reflexivity.
    + destruct (scalars sch n) as [ops|]; [|reflexivity].
      unfold in_scalar_coercer, null_wrap. destruct (is_none v); [reflexivity|].
      destruct (s_input ops v) as [r|[]]; reflexivity.
    + unfold null_wrap. destruct (is_none v); [reflexivity|]. destruct v; try reflexivity.
      rewrite coerce_fields_map_res.
      set (cf := coerce_field (spec_coerce sch fuel) (fun ft d => get_literal_coercer sch fuel ft [] false d) p kv).
      rewrite (map_res_ext _ (fun f => bind (bind (cf f) (fun o => Ok (in_name f, o)))
                                            (fun r => Ok (fst r, in_outcome_of (snd r)))) fields).
      * rewrite map_res_map. destruct (map_res _ fields) as [rs|e]; cbn [bind]; [|reflexivity].
        fold (unknown_of fields p kv) (in_outcomes_of rs).
        pose proof (obj_merge_in_mk rs (unknown_of fields p kv) [] []) as Hm. cbn [app] in Hm.
        rewrite finish_object_mk, <- Hm. now destruct (obj_merge_in _ [] []).
      * intros f _. unfold cf, coerce_field.
        pose proof (IH (in_type f)) as Hf. unfold get_input_coercer in Hf. unfold get_literal_coercer.
        destruct (peel (in_type f)) as [ws leafn].
        destruct (dict_get (in_name f) kv) as [fv|].
        -- rewrite Hf. destruct (spec_coerce sch fuel (in_type f) _ fv); reflexivity.
        -- destruct (in_default f) as [d|]; [|destruct (is_non_null (in_type f)); reflexivity].
           destruct (wrap_literal ws _ [] false d) as [dv|]; cbn [bind]; [destruct (is_undef dv)|]; reflexivity.
  - intros fuel t IH p v. rewrite get_input_coercer_list, spec_coerce_list. unfold in_list_coercer, null_wrap.
    destruct v; cbn [is_none]; try reflexivity;
      try (rewrite IH; destruct (spec_coerce sch fuel t p _); cbn [bind]; [now rewrite wrap_single_mk|reflexivity]).
    rewrite map_res_enumerate, (coerce_items_ext _ _ p IH).
    destruct (coerce_items _ _ _ _) as [rs|]; cbn [bind]; [|reflexivity].
    pose proof (merge_list_mk PList rs [] []) as Hm. cbn [app] in Hm.
    rewrite collect_mk, <- Hm. now destruct (merge_list rs [] []).
  - intros fuel t IH p v. rewrite get_input_coercer_nonnull, spec_coerce_nonnull.
    unfold in_non_null_coercer. now rewrite IH.
Qed.

Lemma spec_coerce_normal : forall fuel t p v r, spec_coerce sch fuel t p v = Ok r -> value_xor_errors r.
Proof.
  intros fuel t. induction t as [n|t IH|t IH]; intros p v r.
  - destruct fuel as [|fuel]; [discriminate|]. cbn [spec_coerce].
    destruct (find_type sch n) as [[ |values|fields|ifs fs|fs|ms]|]; try discriminate;
      [destruct (scalars sch n) as [ops|]; [|discriminate]| |];
      (destruct (is_none v); [intros [= <-]; exact (mk_cres_normal PNone [])|]).
    + destruct (s_input ops v) as [x|[]]; [destruct (is_undef x)|..];
        intros [= <-]; unfold value_xor_errors; cbn; congruence.
    + destruct v; try destruct (mem_str s values); intros [= <-]; unfold value_xor_errors; cbn; congruence.
    + destruct v; try (intros [= <-]; unfold value_xor_errors; cbn; congruence).
      destruct (coerce_fields _ fields); cbn [bind]; [|discriminate].
      intros [= <-]. rewrite finish_object_mk. apply mk_cres_normal.
  - rewrite spec_coerce_list.
    destruct (is_none v); [intros [= <-]; exact (mk_cres_normal PNone [])|].
    destruct v; try (destruct (spec_coerce sch fuel t p _); cbn [bind]; [|discriminate];
                     intros [= <-]; rewrite wrap_single_mk; apply mk_cres_normal).
    destruct (coerce_items _ _ _ _); cbn [bind]; [|discriminate].
    intros [= <-]. rewrite collect_mk. apply mk_cres_normal.
  - rewrite spec_coerce_nonnull.
    destruct (is_none v); [intros [= <-]; exact (mk_cres_normal PNone [(ENonNullNull, p)])|apply IH].
Qed.

Definition var_outcome_of (o : option cres) : var_outcome :=
  match o with Some r => VRes r | None => VUndefined end.

Lemma variable_coercer_refines fuel vd raw :
  variable_coercer sch fuel vd raw =
  bind (spec_variable sch fuel vd raw) (fun o => Ok (var_outcome_of o)).
Proof.
  unfold variable_coercer, spec_variable, var_lookup.
  destruct (dict_get (v_name vd) raw) as [value|].
  - cbn [negb orb]. destruct (is_none value && is_non_null (v_type vd)); [reflexivity|].
    rewrite input_coercer_refines_spec.
    destruct (spec_coerce sch fuel (v_type vd) [] value) as [r|e] eqn:E; cbn [bind]; [|reflexivity].
    rewrite mk_cres_id by (eapply spec_coerce_normal; eauto). reflexivity.
  - destruct (v_default vd) as [d|].
    + destruct (get_literal_coercer sch fuel (v_type vd) [] false d) as [x|e]; cbn [bind]; [|reflexivity].
      destruct (is_undef x); reflexivity.
    + destruct (is_non_null (v_type vd)); reflexivity.
Qed.

Theorem coerce_variables_refines_spec fuel vds raw :
  coerce_variables sch fuel vds raw = spec_coerce_variables sch fuel vds raw.
Proof.
  induction vds as [|vd vds IH]; cbn [coerce_variables spec_coerce_variables]; [reflexivity|].
  rewrite variable_coercer_refines, IH.
  destruct (spec_variable sch fuel vd raw) as [o|e]; [|reflexivity].
  destruct (spec_coerce_variables sch fuel vds raw) as [[vals errs]|e]; [|reflexivity].
  destruct o as [[v es]|]; reflexivity.
Qed.

End Refine.
