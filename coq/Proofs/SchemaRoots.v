(* Root operation types named by a schema EXTENSION: `apply_ext` writes them into the merged schema, whose
   root check then sees them -- an extension naming an undefined mutation / subscription / query root
   never yields an engine (seed C12-h is the engine losing exactly this). *)
From Coq Require Import List String Bool.
From TV Require Import Model.SchemaBuild Model.SpecSchema Proofs.SchemaProofs.
Import ListNotations.

Theorem undefined_root_after_merge_refused s g0 :
  initial s = inl g0 ->
  let g := fold_left apply_ext (s_exts s) g0 in
  (defined g (g_query g) = false \/
   (g_mutation g <> "Mutation" /\ defined g (g_mutation g) = false) \/
   (g_subscription g <> "Subscription" /\ defined g (g_subscription g) = false)) ->
  builds s = false.
Proof.
  intros Hi g H. apply (build_rejects_defects s g0 Hi). fold g. unfold defect_after_merge.
  assert (SpecSchema.v_roots g = true) as ->; [|now rewrite !orb_true_r].
  unfold SpecSchema.v_roots. destruct H as [->|[[Hn ->]|[Hn ->]]]; [reflexivity| |];
    apply String.eqb_neq in Hn; rewrite Hn; now rewrite ?orb_true_r.
Qed.

(* the LAST extension that names the mutation root decides it *)
Theorem last_extension_undefined_mutation_root_refused s g0 front ops dirs v :
  initial s = inl g0 -> s_exts s = (front ++ [XSchema ops dirs])%list ->
  op_lookup "mutation" (g_mutation (fold_left apply_ext front g0)) ops = v -> v <> "Mutation" ->
  defined (fold_left apply_ext (s_exts s) g0) v = false ->
  builds s = false.
Proof.
  intros Hi He Hv Hn Hd. apply (undefined_root_after_merge_refused s g0 Hi). right. left.
  replace (g_mutation (fold_left apply_ext (s_exts s) g0)) with v; [now split|].
  rewrite He, fold_left_app. symmetry. exact Hv.
Qed.
