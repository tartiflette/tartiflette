(* What the executor may do to `errors` and what it may raise, position by position -- proved once for
   any pair (G, X) closed under the executor's own moves:
     G p s s'   the state may go from s to s' while the value at response path p is computed;
     X b p l    the exception list l may be raised from p (b: after located_error has run there);
     N nodes    a side condition on the field nodes the computation works for.
   Proofs/ExecErrors.v (entries and exceptions are located at or below p) and Proofs/ExecLocations.v
   (every location comes from the document) are its two instances. *)
From Coq Require Import List String.
From TV Require Import Py.Prelude Model.Schema Model.ImplInput Model.ImplExec Proofs.ExecShape Proofs.MixedFields.
Import ListNotations.

Open Scope list_scope.

(* the state change both instances allow: entries satisfying Q are appended to `errors`, nothing else of it changes *)
Definition appends (Q : gerr -> Prop) (s s' : st) : Prop :=
  exists new, s_errors s' = s_errors s ++ new /\ Forall Q new.

Lemma appends_refl Q s : appends Q s s.
Proof. exists []. split; [now rewrite app_nil_r|constructor]. Qed.
Lemma appends_trans Q s1 s2 s3 : appends Q s1 s2 -> appends Q s2 s3 -> appends Q s1 s3.
Proof.
  intros (n1 & E1 & F1) (n2 & E2 & F2). exists (n1 ++ n2). split; [now rewrite E2, E1, app_assoc|].
  apply Forall_app. now split.
Qed.
Lemma appends_add_call Q c s : appends Q s (add_call c s).
Proof. exact (appends_refl Q s). Qed.
Lemma appends_impl (Q Q' : gerr -> Prop) s s' : (forall g, Q g -> Q' g) -> appends Q s s' -> appends Q' s s'.
Proof. intros H (n & E & F). exists n. split; [exact E|]. eapply Forall_impl; [exact H|exact F]. Qed.

Section Effects.
Variable G : list pkey -> st -> st -> Prop.
Variable X : bool -> list pkey -> list perr -> Prop.
Variable N : list fnode -> Prop.

Definition raises {A} (b : bool) (p : list pkey) (r : outcome A) : Prop :=
  match r with OExc l => X b p l | _ => True end.
Definition eff {A} (b : bool) (p : list pkey) (m : M A) : Prop :=
  forall s r s', m s = (r, s') -> G p s s' /\ raises b p r.

Record closed : Prop := {
  cl_refl : forall p s, G p s s;
  cl_trans : forall p s1 s2 s3, G p s1 s2 -> G p s2 s3 -> G p s1 s3;
  cl_G_down : forall p a s s', G (p ++ [a]) s s' -> G p s s';
  cl_call : forall p c s, G p s (add_call c s);
  cl_app : forall b p l l', X b p l -> X b p l' -> X b p (l ++ l');
  cl_X_down : forall p a l, X true (p ++ [a]) l -> X true p l;
  cl_unlocate : forall p l, X true p l -> X false p l;
  cl_fresh : forall nodes p l, N nodes -> fresh_exn nodes l -> X false p l;
  (* handle_field_error: the located exceptions travel on, or their entries are appended *)
  cl_catch : forall nodes p l, N nodes -> X false p l ->
    X true p (map (locate (locs_of nodes) p) l) /\ forall s, G p s (add_errors (map (locate (locs_of nodes) p) l) s)
}.
Hypothesis closure : closed.
Let G_refl := cl_refl closure.
Let G_trans := cl_trans closure.
Let G_down := cl_G_down closure.
Let G_call := cl_call closure.
Let X_app := cl_app closure.
Let X_down := cl_X_down closure.
Let X_unlocate := cl_unlocate closure.
Let X_fresh := cl_fresh closure.
Let X_catch := cl_catch closure.

Lemma eff_ret {A} b p (r : outcome A) : raises b p r -> eff b p (ret r).
Proof. intros H s r' s' E. inversion E; subst. auto. Qed.

Lemma eff_andthen {A B} b b' p (m : M A) (k : outcome A -> M B) :
  eff b p m -> (forall r, raises b p r -> eff b' p (k r)) -> eff b' p (andthen m k).
Proof.
  intros Hm Hk s r s'. unfold andthen. destruct (m s) as [r1 s1] eqn:E1. destruct (Hm _ _ _ E1) as [G1 R1].
  intros E2. destruct (Hk r1 R1 _ _ _ E2) as [G2 R2]. split; [exact (G_trans _ _ _ _ G1 G2)|exact R2].
Qed.

Lemma eff_ext {A} b p (m m' : M A) : (forall s, m s = m' s) -> eff b p m' -> eff b p m.
Proof. intros H H' s. rewrite H. apply H'. Qed.

Lemma eff_down {A} p a (m : M A) : eff true (p ++ [a]) m -> eff true p m.
Proof. intros H s r s' E. destruct (H _ _ _ E) as [G1 R1]. split; [exact (G_down _ _ _ _ G1)|]. destruct r; [exact I|exact (X_down _ _ _ R1)|exact I]. Qed.

Lemma eff_unlocate {A} p (m : M A) : eff true p m -> eff false p m.
Proof. intros H s r s' E. destruct (H _ _ _ E) as [G1 R1]. split; [exact G1|]. destruct r; [exact I|exact (X_unlocate _ _ R1)|exact I]. Qed.

Lemma eff_pre {A} b p (g : st -> st) (m : M A) : (forall s, G p s (g s)) -> eff b p m -> eff b p (fun s => m (g s)).
Proof. intros Hg H s r s' E. destruct (H _ _ _ E) as [G1 R1]. eauto. Qed.

Lemma raises_merge {A B C} b p (f : A -> B -> C) r rs : raises b p r -> raises b p rs -> raises b p (merge f r rs).
Proof. destruct r, rs; cbn; auto using X_app. Qed.
Lemma raises_lift {A B} b p (f : A -> B) r : raises b p r -> raises b p (lift f r).
Proof. now destruct r. Qed.

Lemma eff_lift {A B} b p (f : A -> B) m : eff b p m -> eff b p (andthen m (fun r => ret (lift f r))).
Proof. intros H. eapply eff_andthen; [exact H|]. intros r Hr. now apply eff_ret, raises_lift. Qed.

Lemma eff_gather {A B C} b p (f : A -> B -> C) m ms :
  eff b p m -> eff b p ms -> eff b p (andthen m (fun r => andthen ms (fun rs => ret (merge f r rs)))).
Proof.
  intros H1 H2. eapply eff_andthen; [exact H1|]. intros r Hr. eapply eff_andthen; [exact H2|]. intros rs Hrs.
  now apply eff_ret, raises_merge.
Qed.

Lemma eff_proceed {A B} b p (r : outcome A) (k : A -> M B) : raises b p r -> (forall a, eff b p (k a)) -> eff b p (proceed r k).
Proof. destruct r; intros Hr Hk; [apply Hk|now apply eff_ret..]. Qed.

Section Fields.
Variable p : list pkey.
Variable rf : string -> list fnode -> M (option pyval).

Lemma eff_pass1 isc fs : (forall k ns, In (k, ns) fs -> eff true p (rf k ns)) -> eff true p (mixed_pass1 isc rf fs).
Proof.
  induction fs as [|[k ns] rest IH]; intros H; [now apply eff_ret|].
  assert (IH' : eff true p (mixed_pass1 isc rf rest)) by (apply IH; intros; apply H; now right).
  eapply eff_ext; [apply pass1_cons|]. destruct (isc k ns); [now apply eff_lift|].
  eapply eff_andthen; [apply H; now left|]. intros r Hr. apply eff_proceed; [exact Hr|]. intros o. now apply eff_lift.
Qed.

Lemma eff_pass2 fs : (forall k ns, In (k, ns) fs -> eff true p (rf k ns)) -> forall slots, eff true p (mixed_pass2 rf fs slots).
Proof.
  induction fs as [|[k ns] rest IH]; intros H slots; [now apply eff_ret|].
  destruct slots as [|slot srest]; [now apply eff_ret|].
  eapply eff_ext; [apply pass2_cons|]. apply eff_gather; [|apply IH; intros; apply H; now right].
  destruct slot; [now apply eff_ret|apply H; now left].
Qed.

Lemma eff_mixed isc fs : (forall k ns, In (k, ns) fs -> eff true p (rf k ns)) -> eff true p (exec_fields_mixed isc rf fs).
Proof.
  intros H. eapply eff_ext; [apply mixed_eq|]. eapply eff_andthen; [now apply eff_pass1|]. intros r Hr.
  apply eff_proceed; [exact Hr|]. now apply eff_pass2.
Qed.
(* the uniform configurations are the two corner cases of the two-pass walk *)
Lemma eff_conc fs : (forall k ns, In (k, ns) fs -> eff true p (rf k ns)) -> eff true p (exec_fields_conc rf fs).
Proof.
  intros H. eapply eff_ext; [symmetry; apply (mixed_all_conc rf (fun _ _ => true)); reflexivity|]. now apply eff_mixed.
Qed.

Lemma eff_seq fs : (forall k ns, In (k, ns) fs -> eff true p (rf k ns)) -> eff true p (exec_fields_seq rf fs).
Proof.
  intros H. eapply eff_ext; [symmetry; apply (mixed_all_seq rf (fun _ _ => false)); reflexivity|]. now apply eff_mixed.
Qed.
End Fields.

Lemma eff_items ci p : (forall x i, eff true (p ++ [KIdx i]) (ci x (p ++ [KIdx i]))) ->
  forall items i, eff true p (complete_items ci p i items).
Proof.
  intros H. induction items as [|x xs IH]; intros i; [now apply eff_ret|].
  eapply eff_ext; [apply items_cons|]. apply eff_gather; [eapply eff_down, H|apply IH].
Qed.

Lemma eff_catch nodes p t m : N nodes -> eff false p m -> eff true p (catch nodes p t m).
Proof.
  intros Hn H. eapply eff_andthen; [exact H|]. intros [v|l|e] Hr; try now apply eff_ret.
  destruct (X_catch nodes p l Hn Hr) as [Hx Hg]. intros s r s'. rewrite handle_field_error_eq.
  destruct (is_non_null t); intros E; inversion E; cbn; auto.
Qed.

Lemma eff_coerce_output nodes leaf :
  N nodes -> (forall n v lp, eff false lp (leaf n v lp)) -> forall t v p, eff false p (coerce_output nodes leaf t v p).
Proof.
  intros Hn Hleaf. induction t as [n|t IH|t IH]; intros v p; [apply Hleaf|..].
  - eapply eff_ext; [apply coerce_output_list|].
    destruct v; try (now apply eff_ret); try (apply eff_ret, (X_fresh nodes), fresh_exn_raw; exact Hn).
    apply eff_lift, eff_unlocate, eff_items. intros x i. apply eff_catch; [exact Hn|]. unfold completed.
    destruct (is_exc_value x) as [e|] eqn:Ex; [|apply IH]. apply eff_ret, (X_fresh nodes); [exact Hn|].
    now apply is_exc_value_fresh with x.
  - eapply eff_ext; [apply coerce_output_nonnull|]. eapply eff_andthen; [apply IH|].
    intros [[]|l|e] Hr; apply eff_ret; try exact Hr. apply (X_fresh nodes), fresh_exn_raw. exact Hn.
Qed.

Section Exec.
Variable sch : schema.
Variable doc : document.
Variable vs : vars.
Variable U : usercode.
Variable cfg : config.
Hypothesis N_sub : forall rt nodes sub k ns,
  N nodes -> collect_subfields sch doc vs COLLECT_FUEL rt nodes [] [] = Some sub -> In (k, ns) sub -> N ns.
(* `N (node :: rest)` is there for instances whose X speaks of the nodes' locations *)
Hypothesis X_resolved : forall ptype source p fd node rest l,
  N (node :: rest) -> fst (resolved sch vs U ptype source p fd node) = OExc l -> X false p l.

Definition rf_eff (rf : rfun) : Prop :=
  forall otype value opath k ns, N ns -> eff true (opath ++ [KName k]) (rf otype value opath k ns).

Lemma eff_exec_sub rf nodes otype value opath :
  rf_eff rf -> N nodes -> eff true opath (exec_sub sch doc vs cfg rf nodes otype value opath).
Proof.
  intros Hrf Hn. eapply eff_ext; [apply exec_sub_eq|].
  destruct (collect_subfields sch doc vs COLLECT_FUEL otype nodes [] []) as [sub|] eqn:Hc; [|now apply eff_ret].
  apply eff_lift, eff_mixed. intros k ns Hin. eapply eff_down, Hrf, N_sub; eauto.
Qed.

Lemma eff_leaf rf ptype fd nodes path :
  rf_eff rf -> N nodes -> forall n v lp, eff false lp (leaf_coercer sch doc vs U cfg rf ptype fd nodes path n v lp).
Proof.
  intros Hrf Hn n v lp. eapply eff_ext; [apply leaf_coercer_eq|].
  assert (Hf : forall l, fresh_exn nodes l -> eff false lp (ret (A := pyval) (OExc l))) by (intros; apply eff_ret; cbn; eauto).
  assert (Hsub : forall rt, eff false lp (exec_sub sch doc vs cfg rf nodes rt v lp)) by (intros; now apply eff_unlocate, eff_exec_sub).
  assert (Habs : eff false lp (abstract_leaf sch doc vs U cfg rf ptype fd nodes path n v lp)).
  { assert (Hg : forall s, G lp s (abstract_state U ptype fd path n v s))
      by (unfold abstract_state; destruct (type_resolver_kind U n ptype (fd_name fd)); auto).
    unfold abstract_leaf. destruct (abstract_type sch U ptype fd nodes path n v) as [rt|l|e] eqn:Ea.
    - apply (eff_pre _ _ _ (exec_sub sch doc vs cfg rf nodes rt v lp) Hg), Hsub.
    - apply (eff_pre _ _ _ (ret (OExc l)) Hg), Hf. eapply abstract_type_fresh, Ea.
    - now apply abstract_type_no_crash in Ea. }
  destruct (find_type sch n) as [[ |values|ins|ifs fs|ifields|ms]|]; try (apply Hf, fresh_exn_raw);
    (destruct (is_none v); [now apply eff_ret|]).
  - destruct (scalar_leaf sch n v) eqn:E; try now apply eff_ret. eapply Hf, scalar_leaf_fresh, E.
  - destruct (enum_leaf values v) eqn:E; try now apply eff_ret. eapply Hf, enum_leaf_fresh, E.
  - apply Hsub.
  - exact Habs.
  - exact Habs.
Qed.

Lemma eff_complete_field rf ptype fd nodes path raw :
  rf_eff rf -> N nodes -> raises false path raw -> eff true path (complete_field sch doc vs U cfg rf ptype fd nodes path raw).
Proof.
  intros Hrf Hn Hraw. eapply eff_ext; [apply complete_field_eq|]. apply eff_lift, eff_catch; [exact Hn|].
  destruct raw as [v|l|e]; try now apply eff_ret. unfold completed.
  destruct (is_exc_value v) as [e|] eqn:Ex.
  - apply eff_ret, (X_fresh nodes); [exact Hn|]. now apply is_exc_value_fresh with v.
  - apply eff_coerce_output; [exact Hn|]. now apply eff_leaf.
Qed.

Lemma eff_resolve_field_body rf : rf_eff rf -> rf_eff (resolve_field_body sch doc vs U cfg rf).
Proof.
  intros Hrf otype value opath k [|node rest] Hn; [now apply eff_ret|].
  eapply eff_ext; [apply resolve_field_body_eq|].
  destruct (get_field_definition sch otype (fn_name node)) as [fd|]; [|now apply eff_ret].
  set (path := opath ++ [KName k]).
  assert (Hrv : eff false path (resolve_value sch vs U otype value path fd node)).
  { intros s r s'. rewrite resolve_value_eq. intros E; inversion E. split.
    - destruct (resolved_log sch vs U otype value path fd node) as [->|(args & ->)]; [|apply G_call].
      rewrite app_nil_r. destruct s; apply G_refl.
    - destruct (fst (resolved sch vs U otype value path fd node)) eqn:Er; cbn; auto. eauto. }
  eapply eff_andthen; [exact Hrv|]. intros raw Hraw. destruct raw; [now apply eff_complete_field..|now apply eff_ret].
Qed.

Theorem eff_resolve_field fuel : rf_eff (resolve_field sch doc vs U cfg fuel).
Proof.
  induction fuel as [|fuel IH]; [intros ? ? ? ? ? _; now apply (eff_ret true _ (OCrash OutOfFuel))|].
  now apply eff_resolve_field_body.
Qed.

Theorem eff_run_operation op rt root fs :
  (forall k ns, In (k, ns) fs -> N ns) -> eff true [] (run_operation sch doc vs U cfg op rt root fs).
Proof.
  intros Hfs. assert (H : forall k ns, In (k, ns) fs -> eff true [] (resolve_field sch doc vs U cfg EXEC_FUEL rt root [] k ns))
    by (intros k ns Hin; apply (eff_down [] (KName k)), eff_resolve_field; eauto).
  unfold run_operation. destruct (o_kind op); [now apply eff_mixed|now apply eff_seq|now apply eff_mixed].
Qed.

End Exec.
End Effects.
