(* The output side of the hooks: what is executed (Model/DirectivesOut.v output_run, hooks logging
   their invocations in order) is the pure view -- the value with the applicable tags applied, and one
   on_pre_output_coercion invocation per applicable instance per governed value, null values included. *)
From Coq Require Import List String Lia.
From TV Require Import Model.Directives Model.DirectivesOut Proofs.DirectiveProofs.
Import ListNotations.

Open Scope list_scope.

Section OtyInd.
Variable P : oty -> Prop.
Hypothesis HS : forall ds, P (OScalar ds).
Hypothesis HO : forall ds fields, Forall (fun p => P (ftype p)) fields -> P (OObject ds fields).
Hypothesis HL : forall item, P item -> P (OListOf item).
Fixpoint oty_ind2 (t : oty) : P t :=
  match t with
  | OScalar ds => HS ds
  | OObject ds fields =>
      HO ds fields ((fix go (fs : list (string * list dinst * oty)) : Forall (fun p => P (ftype p)) fs :=
                       match fs with
                       | [] => Forall_nil _
                       | p :: r => Forall_cons p (oty_ind2 (ftype p)) (go r)
                       end) fields)
  | OListOf item => HL item (oty_ind2 item)
  end.
End OtyInd.

Lemma fold_log {A B} (run : A -> list tag_event -> B * list tag_event) (pure : A -> B) (lg : A -> list tag_event) xs :
  (forall x, In x xs -> forall log, run x log = (pure x, log ++ lg x)) ->
  forall ys log,
    fold_left (fun acc x => let r := run x (snd acc) in (fst acc ++ [fst r], snd r)) xs (ys, log) =
    (ys ++ map pure xs, log ++ flat_map lg xs).
Proof.
  induction xs as [|x xs IH]; intros H ys log; cbn [fold_left map flat_map fst snd].
  - now rewrite !app_nil_r.
  - rewrite (H x (or_introl eq_refl)). cbn [fst snd]. rewrite IH by (intros y Hy; apply H; now right).
    now rewrite <- !app_assoc.
Qed.

Theorem output_run_spec : forall t v log, output_run t v log = (output_coerce t v, log ++ output_log t v).
Proof.
  induction t as [ds|ds fields IHfs|t IHt] using oty_ind2; intros v log; cbn [output_run output_coerce output_log].
  - apply run_hooks_spec.
  - rewrite run_hooks_spec. cbn [fst snd].
    destruct (apply_tags ds PRE_OUTPUT v) as [s| |kv|xs]; try (now rewrite app_nil_r).
    rewrite (fold_log (fun p log => let r := output_run (ftype p) (field_tags (fdirs p) (tlookup (fname p) kv)) log in
                                    ((fname p, fst r), snd r))
                      (fun p => (fname p, output_coerce (ftype p) (field_tags (fdirs p) (tlookup (fname p) kv))))
                      (fun p => output_log (ftype p) (field_tags (fdirs p) (tlookup (fname p) kv)))).
    + now rewrite <- app_assoc.
    + intros p Hp log0. now rewrite (proj1 (Forall_forall _ _) IHfs p Hp).
  - destruct v as [s| |kv|xs]; try (now rewrite app_nil_r).
    now rewrite (fold_log (output_run t) (output_coerce t) (output_log t) xs (fun x _ => IHt x)).
Qed.

(* exactly once per governed value: a list of n items of a leaf type -- whatever the items, null ones
   included -- invokes each applicable instance of the item type n times, in item order *)
Theorem list_items_each_once ds xs :
  output_log (OListOf (OScalar ds)) (TLst xs) = flat_map (fun _ => events ds PRE_OUTPUT) xs.
Proof. reflexivity. Qed.

Lemma flat_map_const_length {A B} (l : list A) (c : list B) : List.length (flat_map (fun _ => c) l) = (List.length l * List.length c)%nat.
Proof. induction l as [|x l IH]; cbn [flat_map List.length]; [reflexivity|]. rewrite app_length. lia. Qed.

Theorem list_items_invocation_count ds xs :
  List.length (output_log (OListOf (OScalar ds)) (TLst xs)) =
  (List.length xs * List.length (filter (has_hook PRE_OUTPUT) ds))%nat.
Proof. rewrite list_items_each_once, flat_map_const_length. unfold events. now rewrite map_length. Qed.

Theorem null_meets_the_type_hooks ds fields :
  output_log (OScalar ds) TNull = events ds PRE_OUTPUT /\
  output_log (OObject ds fields) TNull = events ds PRE_OUTPUT /\
  output_coerce (OObject ds fields) TNull = TNull /\ output_coerce (OScalar ds) TNull = TNull.
Proof.
  cbn [output_log output_coerce]; rewrite ?apply_tags_null; try reflexivity. now rewrite app_nil_r.
Qed.
