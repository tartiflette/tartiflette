(* Rule 5.6.1 "values of correct type": the rule's implementation model (Model/ImplValidate.v vct, the
   accumulator-passing recursion of ValuesOfCorrectType._validate with its per-kind helpers) against
   the specification predicate value_ok (Model/SpecValidate.v), for EVERY schema, literal and type,
   at any nesting depth -- list items, input-object fields, self-referential input types included.
   The rule only ever appends to its accumulator (vct_lin), and started from the empty accumulator it
   reports nothing, without raising, exactly for the values the specification accepts (vct_quiet). *)
From Coq Require Import List String Bool.
From TV Require Import Model.Schema Model.ImplValidate Model.SpecValidate Proofs.ListFacts Proofs.ValidateProofs.
From TV Require Import Proofs.ValidateFrame.
Import ListNotations.

Section Values.
Variable V : vschema.

(* the outcome either keeps the accumulator exactly, or raises / appends at least one error *)
Definition kept (acc : list verror) (r : option (list verror)) : Prop := r = Some acc.
Definition flagged (acc : list verror) (r : option (list verror)) : Prop :=
  r = None \/ exists e es, r = Some (acc ++ e :: es).
Definition monotone (acc : list verror) (r : option (list verror)) : Prop :=
  r = None \/ exists es, r = Some (acc ++ es).

Lemma kept_monotone acc r : kept acc r -> monotone acc r.
Proof. right. exists []. now rewrite app_nil_r. Qed.
Lemma flagged_monotone acc r : flagged acc r -> monotone acc r.
Proof. intros [->|(e & es & ->)]; [now left|right; now exists (e :: es)]. Qed.
Lemma monotone_then_flagged acc r (f : list verror -> option (list verror)) :
  monotone acc r -> (forall acc', flagged acc' (f acc')) ->
  flagged acc (match r with Some acc' => f acc' | None => None end).
Proof.
  intros [->|(es & ->)] Hf; [now left|]. destruct (Hf (acc ++ es)) as [->|(e & es' & ->)]; [now left|right].
  rewrite <- app_assoc. destruct es as [|x xs]; [now exists e, es'|now exists x, (xs ++ e :: es')].
Qed.

Definition lin (f : list verror -> option (list verror)) : Prop := forall acc, f acc = option_map (app acc) (f []).

Lemma lin_ret : lin (fun acc => Some acc).
Proof. intros acc. cbn. now rewrite app_nil_r. Qed.
Lemma lin_bind f g : lin f -> lin g -> lin (fun acc => match f acc with Some a => g a | None => None end).
Proof.
  intros Hf Hg acc. rewrite (Hf acc). destruct (f []) as [x|]; [|reflexivity]. cbn [option_map].
  rewrite (Hg (acc ++ x)), (Hg x). destruct (g []); cbn; [now rewrite app_assoc|reflexivity].
Qed.
Lemma lin_pre es g : lin g -> lin (fun acc => g (acc ++ es)).
Proof. intros Hg acc. rewrite (Hg (acc ++ es)). cbn [app]. rewrite (Hg es). destruct (g []); cbn; [now rewrite app_assoc|reflexivity]. Qed.

Lemma lin_bind_quiet (r : option (list verror)) g : lin g ->
  (match r with Some a => g a | None => None end = Some [] <-> r = Some [] /\ g [] = Some []).
Proof.
  intros Hg. destruct r as [a|]; [|split; [discriminate|intros [H _]; discriminate]]. rewrite (Hg a).
  destruct (g []) as [y|]; [|split; [discriminate|intros [_ H]; discriminate]].
  split; [intros H; injection H as H; apply app_eq_nil in H; destruct H as [-> ->]; now split
         |intros [H1 H2]; injection H1 as ->; injection H2 as ->; reflexivity].
Qed.

(* the loops over the items of a list literal and over the fields of an input-object literal *)
Definition each_items path argloc c' :=
  fix each (xs : list lit) (acc : list verror) : option (list verror) :=
    match xs with
    | [] => Some acc
    | x :: r =>
        match x with
        | LVar _ _ => each r acc
        | _ => match vct V path argloc x c' acc with Some acc' => each r acc' | None => None end
        end
    end.
Lemma each_items_step path argloc c' x r acc :
  each_items path argloc c' (x :: r) acc =
  match vct V path argloc x c' acc with Some acc' => each_items path argloc c' r acc' | None => None end.
Proof. destruct x; reflexivity. Qed.

Definition each_fields path argloc (ifs : list input_def) :=
  fix each (xs : list (string * lit)) (acc : list verror) : option (list verror) :=
    match xs with
    | [] => Some acc
    | (fname, fv) :: r =>
        match find (fun f => String.eqb (in_name f) fname) ifs with
        | None => each r (acc ++ [mkerr VT path [lit_loc fv]])
        | Some f => match vct V path argloc fv (in_type f) acc with Some acc' => each r acc' | None => None end
        end
    end.

Definition all_items c' :=
  fix all (xs : list lit) : bool := match xs with [] => true | x :: r => value_ok V x c' && all r end.
Definition all_fields (ifs : list input_def) :=
  fix all (xs : list (string * lit)) : bool :=
    match xs with
    | [] => true
    | (fname, fv) :: r =>
        match find (fun f => String.eqb (in_name f) fname) ifs with
        | Some f => value_ok V fv (in_type f) && all r
        | None => false
        end
    end.

(* only input types are expected types of values: guaranteed for every schema an engine is built from (C12:
   an argument or input field whose type is not an input type makes the build fail) *)
Definition input_named (n : string) : Prop :=
  match vfind_type V n with
  | Some (DObject _ _) | Some (DInterface _) | Some (DUnion _) => False
  | _ => True
  end.
Definition input_ty (c : ty) : Prop := input_named (named_of c).
Hypothesis input_fields_ok : forall n ifs f, vfind_type V n = Some (DInput ifs) -> In f ifs -> input_ty (in_type f).

Lemma input_ty_nonnull c : input_ty (TNonNull c) -> input_ty c.  Proof. exact (fun H => H). Qed.

(* both facts by one nested induction, so that each case of the rule is unfolded once *)
Definition vspec (v : lit) : Prop := forall path argloc c,
  lin (vct V path argloc v c) /\
  (input_ty c -> (vct V path argloc v c [] = Some [] <-> value_ok V v c = true)).

Lemma items_spec path argloc c' items : Forall vspec items ->
  lin (each_items path argloc c' items) /\
  (input_ty c' -> (each_items path argloc c' items [] = Some [] <-> all_items c' items = true)).
Proof.
  induction 1 as [|x r Hx HF [IHl IHq]]; [split; [apply lin_ret|now split]|].
  destruct (Hx path argloc c') as [Hl Hq]. split.
  - intros acc. rewrite !each_items_step. exact (lin_bind _ _ Hl IHl acc).
  - intros Hin. rewrite each_items_step, (lin_bind_quiet _ _ IHl), (Hq Hin), (IHq Hin). cbn [all_items]. now rewrite andb_true_iff.
Qed.

Lemma fields_spec path argloc n ifs fields : vfind_type V n = Some (DInput ifs) ->
  Forall (fun kv => vspec (snd kv)) fields ->
  lin (each_fields path argloc ifs fields) /\
  (each_fields path argloc ifs fields [] = Some [] <-> all_fields ifs fields = true).
Proof.
  intros Hn. induction 1 as [|[fname fv] r Hx HF [IHl IHq]]; [split; [apply lin_ret|now split]|].
  cbn [each_fields all_fields snd] in *.
  destruct (find (fun f => String.eqb (in_name f) fname) ifs) as [f|] eqn:Ef.
  - destruct (Hx path argloc (in_type f)) as [Hl Hq]. split; [exact (lin_bind _ _ Hl IHl)|].
    rewrite (lin_bind_quiet _ _ IHl), (Hq (input_fields_ok n ifs f Hn (proj1 (find_some _ _ Ef)))), IHq. now rewrite andb_true_iff.
  - split; [exact (lin_pre _ _ IHl)|]. cbn [app]. rewrite (IHl [mkerr VT path [lit_loc fv]]).
    destruct (each_fields path argloc ifs r []); now split.
Qed.

(* the leaf outcomes: the accumulator kept, errors appended, a raise *)
Lemma spec_kept (P : Prop) : lin (fun acc => Some acc) /\ (P -> (Some (@nil verror) = Some [] <-> true = true)).
Proof. split; [apply lin_ret|now split]. Qed.
Lemma spec_flagged (P : Prop) e es : lin (fun acc => Some (acc ++ e :: es)) /\ (P -> (Some (e :: es) = Some [] <-> false = true)).
Proof. split; [intros acc; reflexivity|now split]. Qed.
Lemma spec_raised (P : Prop) : lin (fun _ => None) /\ (P -> (@None (list verror) = Some [] <-> false = true)).
Proof. split; [intros acc; reflexivity|now split]. Qed.
(* an expected type that is not an input type: nothing is claimed *)
Lemma spec_not_input (Q : Prop) : lin (fun acc => Some acc) /\ (False -> Q).
Proof. split; [apply lin_ret|contradiction]. Qed.
(* `exact`, not `apply`: applying a conjunction may go through its second projection, and that of spec_not_input fits any goal *)
Ltac leaf_outcome := first [exact (spec_kept _)|exact (spec_flagged _ _ _)|exact (spec_raised _)|exact (spec_not_input _)].

Theorem vct_spec v : vspec v.
Proof.
  induction v as [l n|l x|l x|l s|l b|l|l s|l items IH|l fields IH] using lit_ind2; intros path argloc c.
  (* integers, floats, strings, booleans and enums go together at the end, the enum membership test being what is left *)
  1: split; [intros acc; lazy beta iota zeta fix delta [vct option_map]; now rewrite app_nil_r|now split].
  5: destruct c; lazy beta iota zeta fix delta [vct value_ok]; leaf_outcome.
  6: { (* a list *)
       induction c as [n|c IHc|c IHc]; [lazy beta iota zeta fix delta [vct value_ok]|cbn [vct value_ok]; exact (items_spec path argloc c items IH)|exact IHc].
       unfold s_type, input_ty, input_named. cbn [named_of].
       destruct (vfind_type V n) as [[|values|ifs|ifaces fs|fs|ms]|]; try leaf_outcome.
       destruct (scalars (vs V) n) as [ops|]; [|leaf_outcome].
       destruct (s_literal ops (node_of_lit (LList l items))) as [[]|]; cbn [has_value_attr]; leaf_outcome. }
  6: { (* an object *)
       induction c as [n|c IHc|c IHc]; [cbn [vct value_ok]|exact IHc..].
       unfold s_type, input_ty, input_named. cbn [named_of].
       destruct (vfind_type V n) as [[|values|ifs|ifaces fs|fs|ms]|] eqn:En; try leaf_outcome.
       - destruct (scalars (vs V) n) as [ops|]; [|leaf_outcome].
         destruct (s_literal ops (node_of_lit (LObj l fields))) as [[]|]; leaf_outcome.
       - destruct (fields_spec path argloc n ifs fields En IH) as [Hl Hq].
         split; [exact (lin_pre _ _ Hl)|intros _]. cbn [app]. rewrite (Hl (flat_map _ ifs)), andb_true_iff, <- Hq.
         destruct (each_fields path argloc ifs fields []) as [es|]; cbn [option_map]; [|split; [discriminate|intros [_ H]; discriminate]].
         rewrite some_nil_iff, app_nil_iff, flat_map_nil_iff, forallb_forall.
         split; intros [H1 H2]; (split; [|congruence]); intros f Hf; specialize (H1 f Hf);
           destruct (mem_str (in_name f) (map fst fields)), (is_non_null (in_type f)), (in_default f); cbn in *; congruence. }
  all: induction c as [n|c IHc|c IHc]; [lazy beta iota zeta fix delta [vct value_ok]|exact IHc..].
  all: unfold s_type, input_ty, input_named; cbn [named_of].
  all: destruct (vfind_type V n) as [[|values|ifs|ifaces fs|fs|ms]|]; try leaf_outcome.
  all: try (destruct (scalars (vs V) n) as [ops|]; [|leaf_outcome];
            match goal with |- context [s_literal ops ?x] => destruct (s_literal ops x) as [[]|] end;
            leaf_outcome).
  cbn [enum_value_known]. destruct (mem_str s values); leaf_outcome.
Qed.

Corollary vct_lin v path argloc c : lin (vct V path argloc v c).
Proof. exact (proj1 (vct_spec v path argloc c)). Qed.
Corollary vct_quiet v path argloc c : input_ty c -> (vct V path argloc v c [] = Some [] <-> value_ok V v c = true).
Proof. exact (proj2 (vct_spec v path argloc c)). Qed.

(* what linearity and exactness from the empty accumulator say from any accumulator *)
Lemma lin_exact f acc (b : bool) : lin f -> (f [] = Some [] <-> b = true) ->
  (b = true -> kept acc (f acc)) /\ (b = false -> flagged acc (f acc)).
Proof.
  intros Hl Hq. rewrite (Hl acc). destruct (f []) as [[|e es]|]; cbn [option_map].
  - rewrite app_nil_r. split; [reflexivity|]. intros H. rewrite (proj1 Hq eq_refl) in H. discriminate.
  - split; [intros H; discriminate (proj2 Hq H)|right; now exists e, es].
  - split; [intros H; discriminate (proj2 Hq H)|now left].
Qed.

Theorem vct_exact v path argloc c acc : input_ty c ->
  (value_ok V v c = true -> kept acc (vct V path argloc v c acc)) /\
  (value_ok V v c = false -> flagged acc (vct V path argloc v c acc)).
Proof. intros Hc. exact (lin_exact _ acc _ (vct_lin v path argloc c) (vct_quiet v path argloc c Hc)). Qed.

Definition args_ok (ds : list input_def) (args : list argument) : bool :=
  forallb (fun a => match find (fun d => String.eqb (in_name d) (a_name a)) ds with
                    | Some d => value_ok V (a_value a) (in_type d)
                    | None => true end) args.

Definition each_args path (ds : list input_def) :=
  fix each (xs : list argument) (acc : list verror) : option (list verror) :=
    match xs with
    | [] => Some acc
    | a :: r =>
        match find (fun d => String.eqb (in_name d) (a_name a)) ds with
        | None => each r acc
        | Some d => match vct V path (a_loc a) (a_value a) (in_type d) acc with
                    | Some acc' => each r acc'
                    | None => None
                    end
        end
    end.

Lemma args_spec path ds args : (forall d, In d ds -> input_ty (in_type d)) ->
  lin (each_args path ds args) /\ (each_args path ds args [] = Some [] <-> args_ok ds args = true).
Proof.
  intros Hds. induction args as [|a r [IHl IHq]]; [split; [apply lin_ret|now split]|].
  cbn [each_args args_ok forallb].
  destruct (find (fun d => String.eqb (in_name d) (a_name a)) ds) as [d|] eqn:Ef; [|split; assumption].
  split; [exact (lin_bind _ _ (vct_lin _ _ _ _) IHl)|].
  now rewrite (lin_bind_quiet _ _ IHl), (vct_quiet _ _ _ _ (Hds d (proj1 (find_some _ _ Ef)))), IHq, andb_true_iff.
Qed.

Theorem vct_arguments_quiet path ds args : (forall d, In d ds -> input_ty (in_type d)) ->
  (vct_arguments V path (Some ds) args = Some [] <-> args_ok ds args = true).
Proof. intros Hds. exact (proj2 (args_spec path ds args Hds)). Qed.

Theorem vct_arguments_exact path ds args :
  (forall d, In d ds -> input_ty (in_type d)) ->
  (args_ok ds args = true -> vct_arguments V path (Some ds) args = Some []) /\
  (args_ok ds args = false -> flagged [] (vct_arguments V path (Some ds) args)).
Proof.
  intros Hds. destruct (args_spec path ds args Hds) as [Hl Hq]. exact (lin_exact _ [] _ Hl Hq).
Qed.

Theorem flagged_values_refuse r st :
  aborted st = false -> flagged [] r -> refusing (emit false r st).
Proof.
  intros Ha Hf. apply emit_refuses; [exact Ha|]. destruct Hf as [->|(e & es & ->)]; discriminate.
Qed.

End Values.
