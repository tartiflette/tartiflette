(* Type soundness of input coercion: whatever the coercion of a literal (Model/SpecLiteral.v),
   of a variable value (Model/SpecInput.v) or of an argument delivers is a value of the declared
   type (Model/InputTyping.v). *)
From Coq Require Import ZArith List String Bool.
From TV Require Import Py.Prelude Model.Schema Model.ScalarSpec Model.ImplInput Model.SpecInput Model.SpecLiteral
     Proofs.ListFacts Proofs.InputRefine Proofs.InputFacts Proofs.LiteralRefine Proofs.LiteralFacts.
From TV Require Import Model.ImplValidate Proofs.ArgsRefine.
(* last, so that `has_type` is Model.InputTyping's and not the validator's of the same name *)
From TV Require Import Model.InputTyping.
Import ListNotations.

Open Scope list_scope.

Section Sound.
Variable sch : schema.
Variable leaf : string -> pyval -> bool.
Notation has_type := (has_type sch leaf).

(* what is assumed of the scalars: their coercion functions return internal values the leaf
   predicate accepts (or "invalid"), never None for a non-null input *)
Hypothesis leaf_input : forall n ops v r, scalars sch n = Some ops -> s_input ops v = Ok r -> is_undef r = false -> leaf n r = true.
Hypothesis leaf_literal : forall n ops a r, scalars sch n = Some ops -> wf_node a = true -> s_literal ops a = Ok r -> is_undef r = false -> leaf n r = true.
Hypothesis leaf_not_none : forall n, leaf n PNone = false.
(* input object field names are unique (a checked schema rule) *)
Hypothesis input_fields_unique : forall n fields, find_type sch n = Some (DInput fields) -> NoDup (map in_name fields).
(* the defaults written in the schema are well-formed AST values (what the SDL parser builds) *)
Hypothesis defaults_wf : forall n fields f d, find_type sch n = Some (DInput fields) -> In f fields -> in_default f = Some d -> wf_lit d = true.

Lemma wf_lit_list lo items : wf_lit (LList lo items) = forallb wf_lit items.
Proof. cbn [wf_lit]. induction items as [|x r IH]; [reflexivity|]. now rewrite IH. Qed.
Lemma wf_lit_obj lo fs : wf_lit (LObj lo fs) = forallb (fun kv => wf_lit (snd kv)) fs.
Proof. cbn [wf_lit]. induction fs as [|[k x] r IH]; [reflexivity|]. now rewrite IH. Qed.
(* wf_lit is about a whole literal, wf_node (Model/ScalarSpec.v) about the one node a scalar's
   parse_literal is handed *)
Lemma wf_lit_node l : wf_lit l = true -> wf_node (node_of_lit l) = true.
Proof. destruct l as [lo x|lo v|lo v|lo s|lo b|lo|lo s|lo items|lo fnodes]; cbn; congruence. Qed.
Lemma lit_obj_get_wf k fs node : forallb (fun kv => wf_lit (snd kv)) fs = true -> lit_obj_get k fs = Some node -> wf_lit node = true.
Proof.
  induction fs as [|[k' x] r IH]; intros Hw Hg; [discriminate|]. cbn [forallb snd] in Hw. apply andb_true_iff in Hw.
  destruct Hw as [Hx Hr]. cbn [lit_obj_get] in Hg. destruct (lit_obj_get k r) as [later|] eqn:E.
  - injection Hg as <-. now apply IH.
  - destruct (String.eqb k k'); [now injection Hg as <-|discriminate].
Qed.

Lemma has_type_nonnull v t : has_type v (TNonNull t) = negb (is_none v) && has_type v t.
Proof. destruct v; reflexivity. Qed.

Lemma has_type_none t : is_non_null t = false -> has_type PNone t = true.
Proof. destruct t; cbn; congruence. Qed.

Lemma has_type_list items t : has_type (PList items) (TList t) = all_items sch leaf t items.
Proof.
  unfold all_items. induction items as [|x r IH]; [reflexivity|]. cbn [forallb]. now rewrite <- IH.
Qed.

Lemma has_type_singleton v t : has_type v t = true -> has_type (PList [v]) (TList t) = true.
Proof. intros H. rewrite has_type_list. unfold all_items. cbn [forallb]. now rewrite H. Qed.

Lemma has_type_object kv n fields :
  find_type sch n = Some (DInput fields) ->
  has_type (PDict kv) (TNamed n) = all_entries sch leaf fields kv && required_present fields kv.
Proof.
  intros H. cbn. rewrite H. f_equal. unfold all_entries.
  induction kv as [|[k x] r IH]; [reflexivity|]. cbn [forallb fst snd]. now rewrite <- IH.
Qed.

Lemma leaf_not_null n v : leaf n v = true -> is_none v = false.
Proof. destruct v; try reflexivity. now rewrite leaf_not_none. Qed.

Lemma has_type_scalar v n : find_type sch n = Some DScalar -> leaf n v = true -> has_type v (TNamed n) = true.
Proof. intros H Hl. pose proof (leaf_not_null n v Hl). destruct v; cbn; rewrite ?H; try exact Hl. discriminate. Qed.

Lemma has_type_nonnull_intro v t : is_none v = false -> has_type v t = true -> has_type v (TNonNull t) = true.
Proof. intros Hn H. rewrite has_type_nonnull, Hn. exact H. Qed.

Lemma has_type_strip v t : has_type v (TNonNull t) = true -> has_type v t = true.
Proof. rewrite has_type_nonnull. intros H. apply andb_true_iff in H. tauto. Qed.

Lemma find_input_unique fields : NoDup (map in_name fields) -> forall f, In f fields -> find_input (in_name f) fields = Some f.
Proof.
  unfold find_input. induction fields as [|g fields IH]; intros Hnd f Hin; [contradiction|].
  inversion Hnd as [|? ? Hni Hnd']. cbn [find].
  destruct Hin as [->|Hin]; [now rewrite String.eqb_refl|].
  destruct (String.eqb (in_name f) (in_name g)) eqn:E; [|now apply IH].
  apply String.eqb_eq in E. exfalso. apply Hni. rewrite <- E. now apply in_map.
Qed.

Lemma map_res_named {A} (G : input_def -> res A) fs rs :
  map_res (fun f => bind (G f) (fun o => Ok (in_name f, o))) fs = Ok rs ->
  Forall2 (fun f r => fst r = in_name f /\ G f = Ok (snd r)) fs rs.
Proof.
  intros H. eapply forall2_impl; [|exact (map_res_Forall2 _ _ _ H)].
  intros f r E. cbv beta in E. destruct (G f); [injection E as <-; auto|discriminate].
Qed.

(* `entry` says which outcomes contribute an entry; an outcome that contributes none is allowed for a
   nullable field only *)
Lemma dict_typed {A} (G : input_def -> res A) (entry : A -> option pyval) n fields rs :
  find_type sch n = Some (DInput fields) ->
  Forall2 (fun f r => fst r = in_name f /\ G f = Ok (snd r)) fields rs ->
  (forall f a, In f fields -> In (in_name f, a) rs -> G f = Ok a ->
     match entry a with Some v => has_type v (in_type f) = true | None => is_non_null (in_type f) = false end) ->
  has_type (PDict (flat_map (fun r => match entry (snd r) with Some v => [(fst r, v)] | None => [] end) rs)) (TNamed n) = true.
Proof.
  intros Hn Hf Hok. rewrite (has_type_object _ n fields Hn).
  pose proof (input_fields_unique n fields Hn) as Hnd.
  apply andb_true_iff. split.
  - apply forallb_forall. intros [k v] Hin.
    apply in_flat_map in Hin. destruct Hin as [[k' a] [Hr Hin]].
    destruct (forall2_in_r _ _ _ _ Hf Hr) as [f [Hfin [Hname HG]]]. cbn [fst snd] in *. subst k'.
    specialize (Hok f a Hfin Hr HG). destruct (entry a) as [v'|]; [|contradiction].
    destruct Hin as [[= <- <-]|[]]. now rewrite (find_input_unique fields Hnd f Hfin).
  - apply forallb_forall. intros f Hfin.
    destruct (forall2_in_l _ _ _ _ Hf Hfin) as [[k a] [Hr [Hname HG]]]. cbn [fst snd] in *. subst k.
    specialize (Hok f a Hfin Hr HG). destruct (entry a) as [v|] eqn:Ea.
    + assert (Hin : In (in_name f, v) (flat_map (fun r => match entry (snd r) with Some v => [(fst r, v)] | None => [] end) rs)).
      { apply in_flat_map. exists (in_name f, a). split; [exact Hr|]. cbn [fst snd]. rewrite Ea. now left. }
      now destruct (dict_get_in _ _ _ Hin) as [v' ->].
    + destruct (dict_get (in_name f) _); [reflexivity|]. now rewrite Hok.
Qed.

Definition not_null_lit (l : lit) : bool := match l with LNull _ => false | _ => true end.

(* `nn`: the position is directly under a Non-Null wrapper, where the literal null is not written *)
Definition lit_sound_at (fuel : nat) (t : ty) : Prop :=
  forall vs nn l r,
    spec_literal sch fuel t vs nn l = Ok r -> is_undef r = false ->
    lit_vars_typed sch leaf fuel vs t l = true -> wf_lit l = true ->
    (nn = true -> not_null_lit l = true) ->
    has_type r t = true /\ (nn = true -> is_none r = false).

Lemma lvt_nonnull fuel vs t l : lit_vars_typed sch leaf fuel vs (TNonNull t) l = lit_vars_typed sch leaf fuel vs t l.
Proof. destruct fuel; reflexivity. Qed.

Lemma lvt_list fuel vs t l :
  lit_vars_typed sch leaf fuel vs (TList t) l =
  match l with
  | LVar _ x => var_typed sch leaf vs (TList t) x
  | LList _ items => forallb (lit_vars_typed sch leaf fuel vs t) items
  | LNull _ => true
  | _ => lit_vars_typed sch leaf fuel vs t l
  end.
Proof. destruct fuel; reflexivity. Qed.

(* a variable or null written at a list or named position is coerced the same way whatever the type *)
Lemma nv_sound fuel t vs nn l r :
  is_non_null t = false -> plain_literal l = false ->
  spec_literal sch fuel t vs nn l = Ok r -> is_undef r = false ->
  lit_vars_typed sch leaf fuel vs t l = true -> (nn = true -> not_null_lit l = true) ->
  has_type r t = true /\ (nn = true -> is_none r = false).
Proof.
  intros Ht Hp Hs Hu Hv Hnn.
  assert (Hr : match l with LVar _ x => r = var_value vs nn x /\ var_typed sch leaf vs t x = true | _ => r = PNone end).
  { destruct t as [n|t|t]; [|rewrite spec_literal_list in Hs; rewrite lvt_list in Hv|discriminate].
    - destruct fuel; [discriminate|]. cbn [spec_literal lit_vars_typed] in *.
      destruct (find_type sch n) as [[ | | | | | ]|]; try (discriminate);
        try (destruct (scalars sch n); [| discriminate]);
        destruct l; try discriminate Hp; now injection Hs as <-.
    - destruct l; try discriminate Hp; now injection Hs as <-. }
  destruct l as [lo x| | | | |lo| | | ]; try discriminate Hp.
  - destruct Hr as [-> Hvt]. unfold var_value, var_typed in *. destruct (dict_get x vs) as [v|]; [|discriminate].
    destruct (is_undef v); [discriminate|].
    destruct (is_none v) eqn:Hn, nn; split; auto; discriminate.
  - subst r. split; [now apply has_type_none|]. intros ->. now specialize (Hnn eq_refl).
Qed.

Definition field_typed (f : input_def) (o : field_outcome) : Prop :=
  match o with
  | FSkip => is_non_null (in_type f) = false
  | FInvalid => True
  | FVal v => is_undef v = false -> has_type v (in_type f) = true
  end.

Lemma all_defined_in rs r : all_defined rs = true -> In r rs -> is_undef r = false.
Proof.
  induction rs as [|x rs IH]; [contradiction|]. intros H [->|Hin]; apply andb_true_iff in H.
  - now apply negb_true_iff.
  - now apply IH.
Qed.

Theorem literal_sound : forall fuel t, lit_sound_at fuel t.
Proof.
  apply fuel_ty_ind.
  - intros n vs nn l r Hs. discriminate.
  - intros fuel n IH vs nn l r Hs Hu Hv Hw Hnn.
    destruct (plain_literal l) eqn:Hp; [|now apply (nv_sound (S fuel) (TNamed n) vs nn l r)].
    cbn [spec_literal] in Hs. cbn [lit_vars_typed] in Hv. pose proof (wf_lit_node l Hw) as Hwn.
    destruct (find_type sch n) as [[ |values|fields|ifs fs|fs|ms]|] eqn:Hn; try discriminate;
      [destruct (scalars sch n) as [ops|] eqn:Hops; [|discriminate]| |];
      destruct l as [lo x|lo v|lo v|lo s|lo b|lo|lo s|lo items|lo fnodes];
      try (injection Hs as <-; discriminate).
    (* a scalar: whatever the kind of the literal, parse_literal decides *)
    all: try (destruct (s_literal ops _) as [r0|e] eqn:Hl; cbv beta iota in Hs;
              [injection Hs as <-|destruct e; try discriminate; injection Hs as <-; discriminate];
              pose proof (leaf_literal n ops _ r0 Hops Hwn Hl Hu) as Hleaf;
              split; [now apply has_type_scalar|intros _; now apply (leaf_not_null n)]).
    + destruct (mem_str s values) eqn:Hm; injection Hs as <-; [|discriminate].
      split; [cbn; now rewrite Hn|reflexivity].
    + destruct (map_res _ fields) as [rs|e] eqn:Hm; cbn [bind] in Hs; [|discriminate]. injection Hs as <-.
      unfold finish_lit_object in *. destruct (existsb field_bad rs) eqn:Hbad; [discriminate|].
      split; [|reflexivity].
      erewrite flat_map_ext;
        [apply (dict_typed _ (fun o => match o with FVal v => Some v | _ => None end) n fields rs Hn (map_res_named _ _ _ Hm))
        |intros [k []]; reflexivity].
      intros f o Hfin Hin Hf.
      assert (Hgood : field_bad (in_name f, o) = false).
      { destruct (field_bad (in_name f, o)) eqn:E; [|reflexivity].
        assert (existsb field_bad rs = true) by (apply existsb_exists; eauto). congruence. }
      cbn [field_bad snd] in Hgood.
      enough (Hok : field_typed f o)
        by (unfold field_typed in Hok; destruct o; [exact Hok|discriminate Hgood|exact (Hok Hgood)]).
      rewrite forallb_forall in Hv. specialize (Hv f Hfin). apply andb_true_iff in Hv. destruct Hv as [Hvn Hvd].
      rewrite wf_lit_obj in Hw. unfold spec_obj_field in Hf.
      assert (Hcase : forall node, lit_vars_typed sch leaf fuel vs (in_type f) node = true -> wf_lit node = true ->
                bind (spec_literal sch fuel (in_type f) vs false node) (fun v => Ok (FVal v)) = Ok o ->
                field_typed f o).
      { intros node Hvt Hwf Hb. destruct (spec_literal sch fuel (in_type f) vs false node) as [v|e] eqn:Hl; cbn [bind] in Hb; [|discriminate].
        injection Hb as <-. unfold field_typed. intros Huv. apply (IH (in_type f) vs false node v Hl Huv Hvt Hwf). discriminate. }
      assert (Hdef : match in_default f with
                     | Some d => bind (spec_literal sch fuel (in_type f) vs false d) (fun v => Ok (FVal v))
                     | None => if is_non_null (in_type f) then Ok FInvalid else Ok FSkip end = Ok o ->
                     field_typed f o).
      { destruct (in_default f) as [d|] eqn:Hd; [exact (Hcase d Hvd (defaults_wf n fields f d Hn Hfin Hd))|].
        destruct (is_non_null (in_type f)) eqn:E; intros [= <-]; [exact I|exact E]. }
      destruct (lit_obj_get (in_name f) fnodes) as [node|] eqn:Hget; [|exact (Hdef Hf)].
      destruct (is_missing_variable node vs); [exact (Hdef Hf)|].
      exact (Hcase node Hvn (lit_obj_get_wf _ _ _ Hw Hget) Hf).
  - intros fuel t IH vs nn l r Hs Hu Hv Hw Hnn.
    destruct (plain_literal l) eqn:Hp; [|now apply (nv_sound fuel (TList t) vs nn l r)].
    rewrite spec_literal_list in Hs. rewrite lvt_list in Hv.
    destruct l as [lo x|lo v|lo v|lo s|lo b|lo|lo s|lo items|lo fnodes]; try discriminate Hp.
    (* anything but a list literal is coerced as the one-element list *)
    all: try (destruct (spec_literal sch fuel t vs false _) as [v0|e] eqn:Hi; cbn [bind] in Hs; [|discriminate];
              destruct (is_undef v0) eqn:Hu0; injection Hs as <-; [discriminate|];
              split; [|reflexivity]; apply has_type_singleton;
              apply (IH vs false _ v0 Hi Hu0 Hv Hw); discriminate).
    destruct (map_res _ items) as [rs|e] eqn:Hm; cbn [bind] in Hs; [|discriminate].
    destruct (all_defined rs) eqn:Hd; injection Hs as <-; [|discriminate].
    split; [|reflexivity]. rewrite has_type_list. apply forallb_forall. intros r Hr.
    destruct (forall2_in_r _ _ _ _ (map_res_Forall2 _ _ _ Hm) Hr) as [it [Hin Hf]]. cbv beta in Hf.
    pose proof (all_defined_in rs r Hd Hr) as Hur.
    destruct (is_missing_variable it vs).
    + destruct (is_non_null t) eqn:Hnnt; injection Hf as <-; [discriminate|]. now apply has_type_none.
    + rewrite forallb_forall in Hv. rewrite wf_lit_list, forallb_forall in Hw.
      apply (IH vs false it r Hf Hur (Hv it Hin) (Hw it Hin)). discriminate.
  - intros fuel t IH vs nn l r Hs Hu Hv Hw Hnn.
    rewrite spec_literal_nonnull in Hs. rewrite lvt_nonnull in Hv.
    assert (Hgo : spec_literal sch fuel t vs true l = Ok r /\ not_null_lit l = true).
    { destruct l; try (split; [exact Hs|reflexivity]). injection Hs as <-. discriminate. }
    destruct Hgo as [Hgo Hl]. destruct (IH vs true l r Hgo Hu Hv Hw (fun _ => Hl)) as [H1 H2].
    split; [apply has_type_nonnull_intro|]; auto.
Qed.

(* defaults are coerced with no variables: nothing is asked of the variables then *)
Lemma lvt_nil : forall fuel t l, lit_vars_typed sch leaf fuel [] t l = true.
Proof.
  apply (fuel_ty_ind (fun fuel t => forall l, lit_vars_typed sch leaf fuel [] t l = true)).
  - destruct l; reflexivity.
  - intros fuel n IH l. destruct l; try reflexivity. cbn [lit_vars_typed].
    destruct (find_type sch n) as [[ | |fs| | | ]|]; try reflexivity.
    apply forallb_forall. intros f _.
    destruct (lit_obj_get _ _); destruct (in_default f); now rewrite ?IH.
  - intros fuel t IH l. rewrite lvt_list. destruct l; try apply IH; try reflexivity.
    apply forallb_forall. intros; apply IH.
  - intros fuel t IH l. rewrite lvt_nonnull. apply IH.
Qed.

Corollary literal_typed fuel t vs l r :
  spec_literal sch fuel t vs false l = Ok r -> is_undef r = false ->
  lit_vars_typed sch leaf fuel vs t l = true -> wf_lit l = true -> has_type r t = true.
Proof. intros Hl Hu Hv Hw. apply (literal_sound fuel t vs false l r Hl Hu Hv Hw). discriminate. Qed.

Corollary default_sound fuel t d dv :
  wf_lit d = true -> spec_literal sch fuel t [] false d = Ok dv -> is_undef dv = false -> has_type dv t = true.
Proof. intros Hw Hl Hu. exact (literal_typed fuel t [] d dv Hl Hu (lvt_nil fuel t d) Hw). Qed.

(* Variable values (JSON).  An input-field default that is not a valid literal of the field's type is a
   coercion error of the field: that the defaults are VALID for their types is not assumed, only that
   they are well-formed AST values (defaults_wf). *)
Definition input_sound_at (fuel : nat) (t : ty) : Prop :=
  forall p v r, spec_coerce sch fuel t p v = Ok (r, []) ->
                has_type r t = true /\ (is_none v = false -> is_none r = false).

Lemma present_no_errors rs k (c : cres) :
  all_errors (map snd (present_of rs)) = [] -> In (k, Some c) rs -> snd c = [].
Proof.
  intros He Hin. apply (proj1 (flat_map_nil_iff snd _) He c), in_map_iff.
  exists (k, c). split; [reflexivity|]. apply in_flat_map. exists (k, Some c). split; [exact Hin|now left].
Qed.

Theorem input_sound : forall fuel t, input_sound_at fuel t.
Proof.
  apply fuel_ty_ind.
  - discriminate.
  - intros fuel n IH p v r Hs. cbn [spec_coerce] in Hs.
    destruct (find_type sch n) as [[ |values|fields|ifs fs|fs|ms]|] eqn:Hn; try discriminate;
      [destruct (scalars sch n) as [ops|] eqn:Hops; [|discriminate]| |];
      (destruct (is_none v); [injection Hs as <-; split; [reflexivity|discriminate]|]).
    + destruct (s_input ops v) as [r0|e] eqn:Hi; [|destruct e; discriminate].
      destruct (is_undef r0) eqn:Hu; [discriminate|]. injection Hs as <-.
      pose proof (leaf_input n ops v r0 Hops Hi Hu) as Hleaf.
      split; [now apply has_type_scalar|intros _; now apply (leaf_not_null n)].
    + destruct v; try discriminate. destruct (mem_str s values) eqn:Hm; [|discriminate]. injection Hs as <-.
      split; [|reflexivity]. cbn. now rewrite Hn.
    + destruct v; try discriminate.
      destruct (coerce_fields _ fields) as [rs|e] eqn:Hm; cbn [bind] in Hs; [|discriminate].
      rewrite finish_object_mk in Hs.
      destruct (all_errors (map snd (present_of rs)) ++ unknown_of fields p kv) eqn:He; [|discriminate].
      injection Hs as <-. apply app_eq_nil in He. destruct He as [He _].
      split; [|reflexivity]. rewrite coerce_fields_map_res in Hm.
      replace (map _ (present_of rs)) with
        (flat_map (fun r => match option_map fst (snd r) with Some v => [(fst r, v)] | None => [] end) rs)
        by (clear; induction rs as [|[k [c|]] rs IH]; cbn; now rewrite ?IH).
      apply (dict_typed _ (option_map fst) n fields rs Hn (map_res_named _ _ _ Hm)).
      intros f o Hfin Hin Hf. unfold coerce_field in Hf.
      destruct (dict_get (in_name f) kv) as [fv|].
      * destruct (spec_coerce sch fuel (in_type f) _ fv) as [[rv re]|e] eqn:Hc; [|discriminate].
        injection Hf as <-.
        pose proof (present_no_errors rs _ _ He Hin) as E. cbn [snd] in E. subst re.
        exact (proj1 (IH _ _ _ _ Hc)).
      * destruct (in_default f) as [d|] eqn:Hd.
        -- rewrite literal_coercer_refines_spec in Hf.
           destruct (spec_literal sch fuel (in_type f) [] false d) as [dv|e] eqn:Hl; cbn [bind] in Hf; [|discriminate].
           destruct (is_undef dv) eqn:Hu; injection Hf as <-.
           ++ discriminate (present_no_errors rs _ _ He Hin).
           ++ exact (default_sound fuel (in_type f) d dv (defaults_wf n fields f d Hn Hfin Hd) Hl Hu).
        -- destruct (is_non_null (in_type f)); injection Hf as <-; [|reflexivity].
           discriminate (present_no_errors rs _ _ He Hin).
  - intros fuel t IH p v r Hs. rewrite spec_coerce_list in Hs. destruct (is_none v) eqn:Hn.
    + injection Hs as <-. split; [reflexivity|discriminate].
    + destruct v;
        try (destruct (spec_coerce sch fuel t p _) as [[r0 e0]|ex] eqn:Hi; cbn [bind] in Hs; [|discriminate]; destruct e0; [|discriminate]; injection Hs as <-;
             split; [|reflexivity]; apply has_type_singleton; exact (proj1 (IH _ _ _ Hi))).
      destruct (coerce_items _ p 0%Z l) as [rs|e] eqn:Hm; cbn [bind] in Hs; [|discriminate].
      rewrite collect_mk in Hs. destruct (all_errors rs) eqn:He; [|discriminate]. injection Hs as <-.
      split; [|reflexivity]. apply forallb_forall. intros x Hx.
      apply in_map_iff in Hx. destruct Hx as [[rv re] [<- Hr]].
      rewrite <- map_res_enumerate in Hm.
      destruct (forall2_in_r _ _ _ _ (map_res_Forall2 _ _ _ Hm) Hr) as [ix [_ Hf]].
      pose proof (proj1 (flat_map_nil_iff snd rs) He _ Hr) as E. cbn [snd] in E. subst re. exact (proj1 (IH _ _ _ Hf)).
  - intros fuel t IH p v r Hs. rewrite spec_coerce_nonnull in Hs. destruct (is_none v) eqn:Hn; [discriminate|].
    destruct (IH _ _ _ Hs) as [H1 H2]. split; [|exact (fun _ => H2 Hn)]. apply has_type_nonnull_intro; auto.
Qed.

Lemma variable_typed fuel vd raw v :
  spec_variable sch fuel vd raw = Ok (Some (v, [])) -> (forall d, v_default vd = Some d -> wf_lit d = true) ->
  has_type v (v_type vd) = true.
Proof.
  unfold spec_variable. intros Hv Hwd. destruct (dict_get (v_name vd) raw) as [value|].
  - destruct (is_none value && is_non_null (v_type vd)); [discriminate|].
    destruct (spec_coerce sch fuel (v_type vd) [] value) as [r|e] eqn:Hc; [|discriminate].
    injection Hv as ->. exact (proj1 (input_sound fuel (v_type vd) [] value v Hc)).
  - destruct (v_default vd) as [d|]; [|destruct (is_non_null (v_type vd)); discriminate].
    rewrite literal_coercer_refines_spec in Hv.
    destruct (spec_literal sch fuel (v_type vd) [] false d) as [dv|e] eqn:Hl; cbn [bind] in Hv; [|discriminate].
    destruct (is_undef dv) eqn:Hu; [discriminate|]. injection Hv as <-.
    exact (default_sound fuel (v_type vd) d dv (Hwd d eq_refl) Hl Hu).
Qed.

Theorem variables_typed fuel vds raw vals errs :
  spec_coerce_variables sch fuel vds raw = Ok (vals, errs) ->
  (forall vd d, In vd vds -> v_default vd = Some d -> wf_lit d = true) ->
  forall x v, In (x, v) vals -> exists vd, In vd vds /\ v_name vd = x /\ has_type v (v_type vd) = true.
Proof.
  intros Hs Hwd x v Hin. apply (spec_coerce_variables_In sch fuel raw vds vals errs Hs) in Hin.
  destruct Hin as (vd & Hvd & Hx & Hv). exists vd. repeat split; auto.
  exact (variable_typed fuel vd raw v Hv (fun d => Hwd vd d Hvd)).
Qed.

Lemma all_items_impl t s items :
  (forall x, In x items -> has_type x t = true -> has_type x s = true) ->
  all_items sch leaf t items = true -> all_items sch leaf s items = true.
Proof.
  unfold all_items. intros H Ha. apply forallb_forall. rewrite forallb_forall in Ha. auto.
Qed.

(* the variable-usage rule is a sub-typing check *)
Theorem type_compat_subtype : forall T V v, type_compat V T = true -> has_type v V = true -> has_type v T = true.
Proof.
  induction T as [n|s IH|s IH]; intros V v Hc Hv.
  - induction V as [m|V' IHV|V' IHV].
    + apply String.eqb_eq in Hc. now subst m.
    + discriminate.
    + apply IHV; [exact Hc|now apply has_type_strip].
  - induction V as [m|V' IHV|V' IHV].
    + discriminate.
    + destruct v; try discriminate; [reflexivity|].
      apply (all_items_impl V' s l); [|exact Hv]. intros x _. now apply IH.
    + apply IHV; [exact Hc|now apply has_type_strip].
  - destruct V as [m|V'|V']; try discriminate.
    rewrite has_type_nonnull in *. apply andb_true_iff in Hv. destruct Hv as [Hn Hv].
    apply andb_true_iff. split; [exact Hn|]. now apply (IH V').
Qed.

Definition nullable (t : ty) : ty := match t with TNonNull t' => t' | _ => t end.

(* a variable that passes all-variable-usages-are-allowed carries a value of the argument's type
   (its nullable form: null / absent values are the coercion's business) *)
Theorem usage_ok_typed ad vd v :
  usage_ok ad vd = true -> has_type v (v_type vd) = true -> has_type v (nullable (in_type ad)) = true.
Proof.
  unfold usage_ok. intros Hu Hv.
  destruct (in_type ad) as [n|t|inner].
  - now apply (type_compat_subtype _ (v_type vd)).
  - now apply (type_compat_subtype _ (v_type vd)).
  - destruct (is_non_null (v_type vd)).
    + apply has_type_strip. now apply (type_compat_subtype _ (v_type vd)).
    + destruct (negb _ && negb _); [discriminate|]. now apply (type_compat_subtype _ (v_type vd)).
Qed.

Definition arg_vars_typed (fuel : nat) (ad : input_def) (anode : option argument) (vs : vars) : Prop :=
  match anode with
  | Some a =>
      match a_value a with
      | LVar _ x => forall v, dict_get x vs = Some v -> is_undef v = false -> has_type v (nullable (in_type ad)) = true
      | l => lit_vars_typed sch leaf fuel vs (in_type ad) l = true
      end
  | None => True
  end.

Definition arg_lit_wf (anode : option argument) : bool :=
  match anode with Some a => wf_lit (a_value a) | None => true end.

Lemma given_typed fuel ad floc anode vs :
  arg_vars_typed fuel ad anode vs -> arg_lit_wf anode = true ->
  match given_of floc anode vs with
  | GLit node => lit_vars_typed sch leaf fuel vs (in_type ad) node = true /\ wf_lit node = true
  | GVar _ v => is_undef v = false -> has_type v (nullable (in_type ad)) = true
  | _ => True
  end.
Proof.
  unfold arg_vars_typed, arg_lit_wf, given_of. destruct anode as [a|]; [|auto].
  destruct (a_value a) as [lo x| | | | | | | | ]; auto. destruct (dict_get x vs); auto.
Qed.

Lemma coerce_lit_typed fuel ad vs node eloc w :
  lit_vars_typed sch leaf fuel vs (in_type ad) node = true /\ wf_lit node = true ->
  coerce_lit sch fuel ad vs node eloc = Ok (AVal w) -> has_type w (in_type ad) = true.
Proof.
  intros [Hvt Hwn] Hb. unfold coerce_lit in Hb. rewrite literal_coercer_refines_spec in Hb.
  destruct (spec_literal sch fuel (in_type ad) vs false node) as [v|e] eqn:Hl; cbn [bind] in Hb; [|discriminate].
  destruct (is_undef v) eqn:Hu; [discriminate|]. injection Hb as <-.
  exact (literal_typed fuel (in_type ad) vs node v Hl Hu Hvt Hwn).
Qed.

Theorem delivered_argument_typed fuel ad floc anode vs w :
  argument_coercer sch fuel ad floc anode vs = Ok (AVal w) ->
  arg_vars_typed fuel ad anode vs -> arg_lit_wf anode = true ->
  (forall d, in_default ad = Some d -> lit_vars_typed sch leaf fuel vs (in_type ad) d = true /\ wf_lit d = true) ->
  has_type w (in_type ad) = true.
Proof.
  intros Hi Hvars Hwf Hdef. rewrite argument_coercer_given in Hi.
  pose proof (given_typed fuel ad floc anode vs Hvars Hwf) as Hg. unfold coerce_given in Hi.
  destruct (given_of floc anode vs) as [eloc k|l|l v|node].
  - destruct (in_default ad) as [d|]; [exact (coerce_lit_typed fuel ad vs d eloc w (Hdef d eq_refl) Hi)|].
    destruct (is_non_null (in_type ad)); discriminate.
  - destruct (is_non_null (in_type ad)) eqn:Hnn; [discriminate|]. injection Hi as <-. now apply has_type_none.
  - destruct (is_none v && is_non_null (in_type ad)) eqn:Hn; [discriminate|].
    destruct (is_undef v); [discriminate|]. injection Hi as <-. specialize (Hg eq_refl).
    destruct (in_type ad) as [n|t|inner]; try exact Hg.
    rewrite andb_true_r in Hn. now apply has_type_nonnull_intro.
  - exact (coerce_lit_typed fuel ad vs node _ w Hg Hi).
Qed.

Theorem direct_variable_delivers_declared_type fuel ad floc a vs lo x vd w :
  a_value a = LVar lo x -> usage_ok ad vd = true ->
  (forall v, dict_get x vs = Some v -> is_undef v = false -> has_type v (v_type vd) = true) ->
  (forall d, in_default ad = Some d -> lit_vars_typed sch leaf fuel vs (in_type ad) d = true /\ wf_lit d = true) ->
  argument_coercer sch fuel ad floc (Some a) vs = Ok (AVal w) ->
  has_type w (in_type ad) = true.
Proof.
  intros Ha Hu Hv Hdef Hi. apply (delivered_argument_typed fuel ad floc (Some a) vs w Hi); [|cbn [arg_lit_wf]; now rewrite Ha|exact Hdef].
  unfold arg_vars_typed. rewrite Ha. intros v Hg Hnu. apply (usage_ok_typed ad vd v Hu). now apply Hv.
Qed.

Theorem delivered_arguments_typed fuel floc anodes vs ads vals errs :
  coerce_arguments_aux sch fuel ads floc anodes vs = Ok (vals, errs) ->
  (forall ad, In ad ads -> arg_vars_typed fuel ad (find_arg (in_name ad) anodes) vs /\ arg_lit_wf (find_arg (in_name ad) anodes) = true) ->
  (forall ad d, In ad ads -> in_default ad = Some d -> lit_vars_typed sch leaf fuel vs (in_type ad) d = true /\ wf_lit d = true) ->
  forall k w, In (k, w) vals -> exists ad, In ad ads /\ in_name ad = k /\ has_type w (in_type ad) = true.
Proof.
  intros Hs Hvars Hdef k w Hin. apply (coerce_arguments_aux_In sch fuel floc anodes vs ads vals errs Hs) in Hin.
  destruct Hin as (ad & Had & Hk & Ho). exists ad. repeat split; auto.
  exact (delivered_argument_typed fuel ad floc _ vs w Ho (proj1 (Hvars ad Had)) (proj2 (Hvars ad Had)) (fun d => Hdef ad d Had)).
Qed.

End Sound.
