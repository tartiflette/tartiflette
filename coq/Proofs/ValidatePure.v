(* ACCEPTANCE IS A PREDICATE OF THE DOCUMENT.  Every conjunct of the characterisation of `accepted` is free of
   the shared, mutable walk context: node predicates with the scope handed down the tree, graph and name conditions,
   the single-root rule, the recorded inline fragments / spreads (Proofs/ValidateSpreads.v) and the three variable
   rules evaluated on books that are a pure function of the document (Proofs/ValidateScopes.v). *)
From Coq Require Import List Bool.
From TV Require Import Model.Schema Model.ImplValidate Model.SpecValidate Proofs.ValidateProofs Proofs.ValidateValues Proofs.ValidateWalk Proofs.ValidateTree Proofs.ValidateSpreads Proofs.ValidateScopes Proofs.ValidateVars.

Theorem accepted_is_a_predicate_of_the_document V
  (Hin : forall n ifs f, vfind_type V n = Some (DInput ifs) -> In f ifs -> input_ty V (in_type f))
  (Hfields : forall scope name f d, vfind_field V scope name = Some f -> In d (fd_args f) -> input_ty V (in_type d))
  (Hdirs : forall n dd d, vfind_directive V n = Some dd -> In d (dd_args dd) -> input_ty V (in_type d)) doc :
  accepted V doc = true <->
  doc_walk_ok V doc = true /\
  acyclic (fragments doc) /\ r_operation_names doc = true /\ r_lone_anonymous doc = true /\
  r_fragment_names doc = true /\ r_spread_targets V doc = true /\ r_fragments_used V doc = true /\
  quiet (single_root_rule doc) /\
  ((forall scope tc l, In (scope, (tc, l)) (doc_inl V doc) -> applies_in V scope tc = true) /\
   (forall scope n l p f, In (scope, (n, l, p)) (doc_spr V doc) -> find_fragment (fragments doc) n = Some f ->
                          applies_in V scope (Some (fr_type f)) = true)) /\
  quiet (uses_defined_rule (books_ctx V doc) (operations doc)) /\
  quiet (variables_used_rule (books_ctx V doc) (operations doc)) /\
  quiet (usages_allowed_rule V (books_ctx V doc) (operations doc)).
Proof.
  rewrite (accepted_characterised V Hin Hfields Hdirs doc).
  rewrite (possible_spreads_exact V doc).
  destruct (variable_rules_pure V doc) as (E1 & E2 & E3). rewrite E1, E2, E3. reflexivity.
Qed.

(* the three variable rules refuse, wherever the use sits (operation, nested selection, fragment reached through spreads,
   directive argument, nested input value) *)
Section Refusals.
Variable V : vschema.

Lemma accepted_variable_rules_pure doc : accepted V doc = true ->
  quiet (uses_defined_rule (books_ctx V doc) (operations doc)) /\ quiet (variables_used_rule (books_ctx V doc) (operations doc)) /\
  quiet (usages_allowed_rule V (books_ctx V doc) (operations doc)).
Proof.
  intros E. destruct (variable_rules_pure V doc) as (E1 & E2 & E3). rewrite <- E1, <- E2, <- E3.
  exact (accepted_variable_rules V doc E).
Qed.

Theorem undeclared_variable_refused doc o n l :
  In o (operations doc) -> op_sees (books_ctx V doc) si_used o (n, l) ->
  (forall vd, In vd (o_vars o) -> v_name vd <> n) -> accepted V doc = false.
Proof.
  intros Ho Hs Hno. apply not_true_is_false. intros E. destruct (accepted_variable_rules_pure doc E) as (Hq & _).
  destruct (proj1 (uses_defined_exact (books_ctx V doc) (operations doc)) Hq o Ho) as [_ Hd].
  destruct (Hd n l Hs) as (vd & Hvd & Hn). exact (Hno vd Hvd Hn).
Qed.

Theorem unused_variable_refused doc o vd :
  In o (operations doc) -> In vd (o_vars o) ->
  (forall l, ~ op_sees (books_ctx V doc) si_used o (v_name vd, l)) -> accepted V doc = false.
Proof.
  intros Ho Hvd Hno. apply not_true_is_false. intros E. destruct (accepted_variable_rules_pure doc E) as (_ & Hq & _).
  destruct (proj1 (variables_used_exact (books_ctx V doc) (operations doc)) Hq o Ho) as [_ Hd].
  destruct (Hd vd Hvd) as (l & Hs). exact (Hno l Hs).
Qed.

Theorem disallowed_usage_refused doc o u a vd :
  In o (operations doc) -> op_sees (books_ctx V doc) si_args o u -> schema_argument V u = Some a ->
  find (fun vd0 => String.eqb (v_name vd0) (au_var u)) (o_vars o) = Some vd -> usage_ok a vd = false ->
  accepted V doc = false.
Proof.
  intros Ho Hs Ha Hvd Hno. apply not_true_is_false. intros E. destruct (accepted_variable_rules_pure doc E) as (_ & _ & Hq).
  destruct (proj1 (usages_allowed_exact V (books_ctx V doc) (operations doc)) Hq o Ho) as [_ Hd].
  rewrite (Hd u a vd Hs Ha Hvd) in Hno. discriminate.
Qed.
End Refusals.
