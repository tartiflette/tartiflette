(* The per-operation / per-fragment bookkeeping of the validation walk (variables used, arguments whose value is a
   variable, fragments spread: `per_op`, `per_frag` of the shared context) is a PURE function of the document: each
   definition contributes the entries of its own selection tree, in document order, with the scope handed down the tree.
   Consequently the three variable rules (5.8.3 uses defined, 5.8.4 variables used, 5.8.5 usages allowed), which read only
   these books, are functions of the document alone. *)
From Coq Require Import List String.
From TV Require Import Model.Schema Model.ImplValidate Proofs.ListFacts Proofs.ValidateFrame Proofs.ValidateWalk Proofs.ValidateSpreads.
From RecordUpdate Require Import RecordSet.
Import ListNotations.
Import RecordSetNotations.

Section Scopes.
Variable V : vschema.

(* what a step adds to the current scope *)
Definition delta := (list (string * loc) * list arguse * list string)%type.
Definition dnil : delta := ([], [], []).
Definition dapp (x y : delta) : delta :=
  (fst (fst x) ++ fst (fst y), snd (fst x) ++ snd (fst y), snd x ++ snd y).
Definition app_si (x : delta) (si : scope_info) : scope_info :=
  mk_si (si_used si ++ fst (fst x)) (si_args si ++ snd (fst x)) (si_spreads si ++ snd x).

Lemma app_si_nil si : app_si dnil si = si.
Proof. destruct si. unfold app_si. now rewrite !app_nil_r. Qed.
Lemma app_si_app x y si : app_si y (app_si x si) = app_si (dapp x y) si.
Proof. unfold app_si. cbn. now rewrite !app_assoc. Qed.
Lemma dapp_nil_l x : dapp dnil x = x. Proof. destruct x as [[a b] c]. reflexivity. Qed.
Lemma dapp_assoc x y z : dapp (dapp x y) z = dapp x (dapp y z).
Proof. unfold dapp. cbn. now rewrite !app_assoc. Qed.

Definition sc_present (st : vctx) : Prop :=
  if in_operation st then assoc (cur_op st) (per_op st) <> None else assoc (cur_frag st) (per_frag st) <> None.

Definition tell (x : delta) (st st' : vctx) : Prop :=
  in_operation st' = in_operation st /\ cur_op st' = cur_op st /\ cur_frag st' = cur_frag st /\ in_vardefs st' = in_vardefs st /\
  per_op st' = (if in_operation st then upd_assoc String.eqb (cur_op st) empty_si (app_si x) (per_op st) else per_op st) /\
  per_frag st' = (if in_operation st then per_frag st else upd_assoc String.eqb (cur_frag st) empty_si (app_si x) (per_frag st)).

Definition frame (st st' : vctx) : Prop :=
  in_operation st' = in_operation st /\ cur_op st' = cur_op st /\ cur_frag st' = cur_frag st /\ in_vardefs st' = in_vardefs st /\
  per_op st' = per_op st /\ per_frag st' = per_frag st.

Lemma books_frame st st' : books_of st' = books_of st -> frame st st'.
Proof.
  intros H. exact (conj (f_equal in_operation H) (conj (f_equal cur_op H) (conj (f_equal cur_frag H)
                  (conj (f_equal in_vardefs H) (conj (f_equal per_op H) (f_equal per_frag H)))))).
Qed.
Lemma frame_refl st : frame st st. Proof. repeat split. Qed.

Lemma tell_of_frame st st' : sc_present st -> frame st st' -> tell dnil st st'.
Proof.
  unfold sc_present. intros Hp (A & B & C & D & E & F). repeat split; try assumption.
  - rewrite E. destruct (in_operation st); [|reflexivity].
    rewrite (upd_assoc_ext empty_si (app_si dnil) (fun x => x) _ _ app_si_nil). now rewrite upd_assoc_id.
  - rewrite F. destruct (in_operation st); [reflexivity|].
    rewrite (upd_assoc_ext empty_si (app_si dnil) (fun x => x) _ _ app_si_nil). now rewrite upd_assoc_id.
Qed.

Lemma tell_trans {x y a b c} : tell x a b -> tell y b c -> tell (dapp x y) a c.
Proof.
  intros (A1 & B1 & C1 & D1 & E1 & F1) (A2 & B2 & C2 & D2 & E2 & F2). unfold tell.
  rewrite A2, B2, C2, D2, E2, F2, A1, B1, C1, E1, F1. repeat split; try assumption.
  - destruct (in_operation a); [|reflexivity]. rewrite upd_assoc_comp. apply upd_assoc_ext. intros si. apply app_si_app.
  - destruct (in_operation a); [reflexivity|]. rewrite upd_assoc_comp. apply upd_assoc_ext. intros si. apply app_si_app.
Qed.

Lemma tell_present x a b : tell x a b -> sc_present b.
Proof.
  unfold sc_present. intros (A & B & C & _ & E & F). rewrite A, E, F.
  destruct (in_operation a); apply upd_assoc_present; now right.
Qed.

(* a step outside variable definitions, in a scope that has its entry: what it tells, and the entry is still there.
   The entry is a premise because upd_assoc would add it: without it a step that tells nothing would not leave
   per_op / per_frag as they are *)
Definition live (st : vctx) : Prop := in_vardefs st = false /\ sc_present st.
Definition told (x : delta) (st st' : vctx) : Prop := live st -> tell x st st'.

Lemma told_live x a b : told x a b -> live a -> live b.
Proof. intros H L. pose proof (H L) as T. split; [rewrite (proj1 (proj2 (proj2 (proj2 T)))); exact (proj1 L)|exact (tell_present _ _ _ T)]. Qed.
Lemma frame_live a b : frame a b -> live a -> live b.
Proof. intros (A & B & C & D & E & F) [L1 L2]. unfold live, sc_present in *. now rewrite A, B, C, D, E, F. Qed.

Lemma told_frame a b : frame a b -> told dnil a b.
Proof. intros F L. exact (tell_of_frame _ _ (proj2 L) F). Qed.
Lemma told_trans {x y a b c} : told x a b -> told y b c -> told (dapp x y) a c.
Proof.
  intros H1 H2 L. exact (tell_trans (H1 L) (H2 (told_live _ _ _ H1 L))).
Qed.
Lemma told_frame_l x a b c : frame a b -> told x b c -> told x a c.
Proof.
  intros F H L. destruct (H (frame_live _ _ F L)) as (A2 & B2 & C2 & D2 & E2 & F2).
  destruct F as (A1 & B1 & C1 & D1 & E1 & F1). unfold tell. rewrite A2, B2, C2, D2, E2, F2, A1, B1, C1, D1, E1, F1. repeat split.
Qed.
Lemma told_frame_r x a b c : told x a b -> frame b c -> told x a c.
Proof.
  intros H F L. destruct (H L) as (A1 & B1 & C1 & D1 & E1 & F1).
  destruct F as (A2 & B2 & C2 & D2 & E2 & F2). unfold tell. rewrite A2, B2, C2, D2, E2, F2. repeat split; assumption.
Qed.
Lemma told_emit x a b bb r : told x a b -> told x a (emit bb r b).
Proof. intros H. exact (told_frame_r _ _ _ _ H (books_frame _ _ (emit_books_of bb r b))). Qed.

Lemma upd_scope_told f x st : (forall si, f si = app_si x si) -> told x st (upd_scope f st).
Proof.
  intros H L. unfold upd_scope, tell. destruct (in_operation st) eqn:E; cbn; rewrite ?E; repeat split; apply upd_assoc_ext; exact H.
Qed.

(* a loop of steps, with an invariant of the state the entries may depend on *)
Lemma fold_told {X} (P : vctx -> Prop) (step : X -> vctx -> vctx) (out : X -> delta) l :
  (forall x st, In x l -> P st -> told (out x) st (step x st) /\ P (step x st)) ->
  forall st, P st -> told (fold_right (fun x acc => dapp (out x) acc) dnil l) st (fold_left (fun st x => step x st) l st) /\
                     P (fold_left (fun st x => step x st) l st).
Proof.
  induction l as [|x l IH]; intros H st Pst; [split; [apply told_frame, frame_refl|exact Pst]|].
  destruct (H x st (or_introl eq_refl) Pst) as [T1 P1].
  destruct (IH (fun y st' Hy => H y st' (or_intror Hy)) _ P1) as [T2 P2]. split; [exact (told_trans T1 T2)|exact P2].
Qed.

Fixpoint val_used (v : lit) : list (string * loc) :=
  match v with
  | LVar l n => [(n, l)]
  | LList _ items => (fix go (xs : list lit) := match xs with [] => [] | x :: r => val_used x ++ go r end) items
  | LObj _ fields => (fix go (xs : list (string * lit)) := match xs with [] => [] | (_, x) :: r => val_used x ++ go r end) fields
  | _ => []
  end.

Definition used_delta (u : list (string * loc)) : delta := (u, [], []).
Lemma used_delta_flat {X} (f : X -> list (string * loc)) l :
  fold_right (fun x acc => dapp (used_delta (f x)) acc) dnil l = used_delta (flat_map f l).
Proof. induction l as [|x l IH]; [reflexivity|]. cbn [fold_right flat_map]. now rewrite IH. Qed.
Lemma val_used_obj l fields : val_used (LObj l fields) = flat_map (fun kv => val_used (snd kv)) fields.
Proof. cbn [val_used]. induction fields as [|[k x] r IH]; [reflexivity|]. now rewrite IH. Qed.

Lemma walk_value_told path v : forall st, told (used_delta (val_used v)) st (walk_value path v st).
Proof.
  induction v as [l n| | | | | | |l items IH|l fields IH] using lit_ind2; intros st; try (apply told_frame, frame_refl).
  - intros L. unfold walk_value, record_var. rewrite (proj1 L). refine (upd_scope_told _ _ _ _ L).
    intros [u a sp]. unfold app_si. now rewrite !app_nil_r.
  - change (val_used (LList l items)) with (flat_map val_used items). rewrite <- used_delta_flat.
    refine (proj1 (fold_told (fun _ => True) (walk_value path) _ _ _ st I)).
    intros x st0 Hx _. split; [exact (proj1 (Forall_forall _ _) IH x Hx st0)|exact I].
  - rewrite walk_value_obj, val_used_obj. destruct fields as [|kv r]; [apply told_frame, frame_refl|].
    apply told_emit. rewrite <- used_delta_flat.
    refine (proj1 (fold_told (fun _ => True) (fun kv => walk_value path (snd kv)) _ _ _ st I)).
    intros x st0 Hx _. split; [exact (proj1 (Forall_forall _ _) IH x Hx st0)|exact I].
Qed.

Definition where_of (st : vctx) : string := if in_directive st then cur_directive st else cur_field st.
Lemma inner_where st st' : inner st' = inner st -> where_of st' = where_of st /\ in_directive st' = in_directive st.
Proof.
  intros H. unfold where_of.
  now rewrite (f_equal in_directive H : in_directive st' = _), (f_equal cur_directive H : cur_directive st' = _),
    (f_equal cur_field H : cur_field st' = _).
Qed.

Definition arg_uses (wh : string) (isdir : bool) (path : opath) (a : argument) : list arguse :=
  match a_value a with
  | LVar l vn => [{| au_arg := a_name a; au_var := vn; au_varloc := l; au_where := wh; au_isdir := isdir; au_path := path |}]
  | _ => []
  end.
Definition arg_delta wh isdir path (a : argument) : delta := (val_used (a_value a), arg_uses wh isdir path a, []).
Definition args_delta wh isdir path (args : list argument) : delta :=
  fold_right (fun a acc => dapp (arg_delta wh isdir path a) acc) dnil args.

Lemma walk_argument_told path a st :
  told (arg_delta (where_of st) (in_directive st) path a) st (walk_argument path a st).
Proof.
  unfold walk_argument, arg_delta, arg_uses.
  generalize (walk_value_told path (a_value a) st), (inner_where _ _ (walk_value_inner path (a_value a) st)).
  destruct (a_value a) as [l n| | | | | | | |]; intros H1 [W D]; try exact H1.
  set (st' := walk_value path (LVar l n) st) in *. clearbody st'.
  refine (told_trans H1 (upd_scope_told _ ([], [_], []) _ _)).
  intros [u aa sp]. unfold app_si. fold (where_of st'). now rewrite W, D, !app_nil_r.
Qed.

Lemma walk_arguments_told path args st :
  told (args_delta (where_of st) (in_directive st) path args) st (walk_arguments path args st).
Proof.
  destruct args as [|a0 r0]; [apply told_frame, frame_refl|]. apply told_emit.
  refine (proj1 (fold_told (fun st0 => where_of st0 = where_of st /\ in_directive st0 = in_directive st)
                           (walk_argument path) _ _ _ st (conj eq_refl eq_refl))).
  intros a st0 _ [W D]. split; [rewrite <- W, <- D; apply walk_argument_told|].
  destruct (inner_where _ _ (walk_argument_inner path a st0)) as [W' D']. split; congruence.
Qed.

Definition dir_delta (path : opath) (d : directive) : delta := args_delta (d_name d) true path (dir_args d).
Definition dirs_delta (path : opath) (ds : list directive) : delta :=
  fold_right (fun d acc => dapp (dir_delta path d) acc) dnil ds.

Lemma walk_directive_told path d st : told (dir_delta path d) st (walk_directive V path d st).
Proof.
  do 4 apply told_emit.
  set (st1 := st <| in_directive := true |> <| cur_directive := d_name d |>).
  exact (walk_arguments_told path (dir_args d) st1).
Qed.

Lemma walk_directives_told path ds st : told (dirs_delta path ds) st (walk_directives V path ds st).
Proof.
  destruct ds as [|d0 r0]; [apply told_frame, frame_refl|]. apply told_emit.
  refine (proj1 (fold_told (fun _ => True) (walk_directive V path) _ _ _ st I)).
  split; [apply walk_directive_told|exact I].
Qed.

Definition spread_delta (name : string) : delta := ([], [], [name]).

Fixpoint sel_delta (scope : option string) (path : opath) (s : selection) {struct s} : delta :=
  match s with
  | SField _ _ name args dirs sels =>
      let path' := path_push path name in
      dapp (args_delta (show_opt scope ++ "." ++ name)%string false path' args)
        (dapp (dirs_delta path' dirs)
           ((fix go (xs : list selection) : delta :=
               match xs with [] => dnil | x :: r => dapp (sel_delta (field_type_name V scope name) path' x) (go r) end) sels))
  | SSpread _ name dirs => dapp (dirs_delta path dirs) (spread_delta name)
  | SInline _ tc dirs sels =>
      dapp (dirs_delta path dirs)
        ((fix go (xs : list selection) : delta :=
            match xs with [] => dnil | x :: r => dapp (sel_delta (inner_scope scope tc) path x) (go r) end) sels)
  end.
Definition sels_delta scope path (sels : list selection) : delta :=
  fold_right (fun x acc => dapp (sel_delta scope path x) acc) dnil sels.

Definition told_sel (s : selection) : Prop :=
  forall path st, told (sel_delta (parent_type st) path s) st (walk_selection V path s st).

Lemma walk_selections_told_of path sels : Forall told_sel sels ->
  forall st, told (sels_delta (parent_type st) path sels) st (walk_selections V path sels st).
Proof.
  intros H st.
  refine (proj1 (fold_told (fun st0 => parent_type st0 = parent_type st) (walk_selection V path) _ _ _ st eq_refl)).
  intros s st0 Hs P. split; [rewrite <- P; exact (proj1 (Forall_forall _ _) H s Hs path st0)|].
  now rewrite (proj2 (walk_selection_obs V s path st0)).
Qed.

Lemma walk_selection_told s : told_sel s.
Proof.
  (* a field or an inline fragment is frame steps around arguments, directives and sub-selections, whose deltas
     compose by dapp; the scope the sub-selections are told under is recovered through the *_outer lemmas *)
  induction s as [l alias name args dirs sels IH|l name dirs|l tc dirs sels IH] using selection_ind2; intros path st.
  - rewrite walk_selection_field. cbv zeta. unfold field_rules, emit_ok. do 6 apply told_emit.
    set (path' := path_push path name).
    set (st1 := st <| parent_type := field_type_name V (parent_type st) name |> <| in_directive := false |> <| cur_field := _ |>).
    set (st2 := walk_arguments path' args st1). set (st3 := walk_directives V path' dirs st2).
    refine (told_frame_r _ _ (walk_selections V path' sels st3) _ _ ltac:(repeat split)).
    refine (told_frame_l _ _ st1 _ ltac:(repeat split) _).
    pose proof (walk_selections_told_of path' sels IH st3) as T4.
    replace (parent_type st3) with (field_type_name V (parent_type st) name) in T4.
    + exact (told_trans (walk_arguments_told path' args st1) (told_trans (walk_directives_told path' dirs st2) T4)).
    + symmetry. unfold st3, st2. rewrite (outer_parent_type _ _ (walk_directives_outer V _ _ _)).
      exact (outer_parent_type _ _ (walk_arguments_outer _ _ _)).
  - cbn [walk_selection sel_delta].
    refine (told_trans _ (upd_scope_told _ (spread_delta name) _ _)).
    + refine (told_frame_r _ _ (emit_ok _ (walk_directives V path dirs st)) _ _ ltac:(repeat split)).
      apply told_emit, walk_directives_told.
    + intros [u a sp]. unfold app_si, spread_delta. cbn. now rewrite !app_nil_r.
  - rewrite walk_selection_inline. cbv zeta.
    change (sel_delta (parent_type st) path (SInline l tc dirs sels))
      with (dapp (dirs_delta path dirs) (sels_delta (inner_scope (parent_type st) tc) path sels)).
    set (st1 := match tc with Some t => st <| parent_type := Some t |> | None => st end).
    set (st2 := walk_directives V path dirs st1).
    refine (told_frame_r _ _ (emit_ok _ (emit_ok _ (emit_ok _ (walk_selections V path sels st2)))) _ _ ltac:(repeat split)).
    unfold emit_ok. do 3 apply told_emit.
    refine (told_frame_l _ _ st1 _ ltac:(unfold st1; destruct tc; repeat split) _).
    pose proof (walk_selections_told_of path sels IH st2) as T3.
    replace (parent_type st2) with (inner_scope (parent_type st) tc) in T3.
    + exact (told_trans (walk_directives_told path dirs st1) T3).
    + symmetry. unfold st2. rewrite (outer_parent_type _ _ (walk_directives_outer V _ _ _)). unfold st1. destruct tc; reflexivity.
Qed.

Lemma walk_selections_told path sels st : told (sels_delta (parent_type st) path sels) st (walk_selections V path sels st).
Proof. apply walk_selections_told_of, Forall_forall. intros s _ p st0. apply walk_selection_told. Qed.

(* inside variable definitions nothing is recorded *)
Definition scopes (st : vctx) := (per_op st, per_frag st).
Lemma emit_scopes b r st : scopes (emit b r st) = scopes st.
Proof. exact (f_equal scopes (emit_books_of b r st)). Qed.
Lemma emit_in_vardefs b r st : in_vardefs (emit b r st) = in_vardefs st.
Proof. exact (f_equal in_vardefs (emit_books_of b r st)). Qed.

Lemma walk_value_vd path v : forall st, in_vardefs st = true -> scopes (walk_value path v st) = scopes st.
Proof.
  induction v as [l n| | | | | | |l items IH|l fields IH] using lit_ind2; intros st Hv; try reflexivity.
  - unfold walk_value, record_var. now rewrite Hv.
  - exact (proj1 (fold_left_inv_if (fun st0 => in_vardefs st0 = true) scopes (fun st0 x => walk_value path x st0) items
             (fun a x Hx Ha => conj (proj1 (Forall_forall _ _) IH x Hx a Ha) (eq_trans (f_equal in_vardefs (walk_value_inner path x a)) Ha)) st Hv)).
  - rewrite walk_value_obj. destruct fields as [|kv r]; [reflexivity|]. unfold emit_ok. rewrite emit_scopes.
    exact (proj1 (fold_left_inv_if (fun st0 => in_vardefs st0 = true) scopes (fun st0 kv0 => walk_value path (snd kv0) st0) (kv :: r)
             (fun a x Hx Ha => conj (proj1 (Forall_forall _ _) IH x Hx a Ha) (eq_trans (f_equal in_vardefs (walk_value_inner path (snd x) a)) Ha)) st Hv)).
Qed.

Lemma walk_vardef_vd vd st : in_vardefs st = true ->
  scopes (walk_vardef V vd st) = scopes st /\ in_vardefs (walk_vardef V vd st) = true.
Proof.
  intros Hv. unfold walk_vardef, emit_ok. rewrite emit_scopes, emit_in_vardefs.
  destruct (v_default vd) as [d|]; [|split; [reflexivity|exact Hv]].
  split; [exact (walk_value_vd None d st Hv)|exact (eq_trans (f_equal in_vardefs (walk_value_inner None d st)) Hv)].
Qed.

Lemma walk_vardefs_frame vds st : in_vardefs st = false -> frame st (walk_vardefs V vds st).
Proof.
  intros Hv. pose proof (walk_vardefs_outer V vds st) as O.
  assert (S : scopes (walk_vardefs V vds st) = scopes st /\ in_vardefs (walk_vardefs V vds st) = false).
  { unfold walk_vardefs, emit_ok. destruct vds as [|v0 r0]; [split; [reflexivity|exact Hv]|].
    rewrite emit_scopes, emit_in_vardefs.
    split; [|reflexivity].
    exact (proj1 (fold_left_inv_if (fun st0 => in_vardefs st0 = true) scopes (fun st0 vd => walk_vardef V vd st0) (v0 :: r0)
                    (fun a vd _ Ha => walk_vardef_vd vd a Ha) (st <| in_vardefs := true |>) eq_refl)). }
  destruct S as [S1 S2]. injection S1 as E1 E2.
  exact (conj (f_equal in_operation O) (conj (f_equal cur_op O) (conj (f_equal cur_frag O) (conj (eq_trans S2 (eq_sym Hv)) (conj E1 E2))))).
Qed.

Definition op_delta (o : operation) : delta :=
  dapp (dirs_delta None (o_dirs o)) (sels_delta (op_root V (o_kind o)) None (o_sels o)).
Definition fr_delta (f : fragment) : delta :=
  dapp (dirs_delta None (fr_dirs f)) (sels_delta (Some (fr_type f)) None (fr_sels f)).

Lemma walk_operation_scopes o st : in_vardefs st = false ->
  per_op (walk_operation V o st) = upd_assoc String.eqb (op_key o) empty_si (app_si (op_delta o)) (per_op st) /\
  per_frag (walk_operation V o st) = per_frag st /\ in_vardefs (walk_operation V o st) = false.
Proof.
  intros Hv. unfold walk_operation.
  set (st1 := st <| parent_type := op_root V (o_kind o) |> <| in_operation := true |> <| cur_op := op_key o |> <| per_op ::= _ |>).
  pose proof (walk_vardefs_frame (o_vars o) st1 Hv) as F2. set (st2 := walk_vardefs V (o_vars o) st1) in *.
  assert (L1 : live st1) by (split; [exact Hv| cbn; apply upd_assoc_present; now right]).
  pose proof (walk_directives_told None (o_dirs o) st2) as T3. set (st3 := walk_directives V None (o_dirs o) st2) in *.
  pose proof (walk_selections_told None (o_sels o) st3) as T4.
  replace (parent_type st3) with (op_root V (o_kind o)) in T4.
  - destruct (told_frame_l _ _ _ _ F2 (told_emit _ _ _ false (Some (valid_locations_errors V None (op_loc_name (o_kind o)) (o_loc o) (o_dirs o)))
               (told_trans T3 T4)) L1) as (_ & _ & _ & D & E & F).
    unfold emit_ok. rewrite E, F, D. cbn. repeat split; [|exact Hv].
    rewrite upd_assoc_comp. reflexivity.
  - symmetry. unfold st3. rewrite (outer_parent_type _ _ (walk_directives_outer V _ _ _)). exact (outer_parent_type _ _ (walk_vardefs_outer V _ _)).
Qed.

Lemma walk_fragment_scopes f st : in_vardefs st = false ->
  per_frag (walk_fragment V f st) = upd_assoc String.eqb (fr_name f) empty_si (app_si (fr_delta f)) (per_frag st) /\
  per_op (walk_fragment V f st) = per_op st /\ in_vardefs (walk_fragment V f st) = false.
Proof.
  intros Hv. unfold walk_fragment.
  set (st1 := st <| parent_type := Some (fr_type f) |> <| in_operation := false |> <| cur_frag := fr_name f |> <| per_frag ::= _ |>).
  assert (L1 : live st1) by (split; [exact Hv| cbn; apply upd_assoc_present; now right]).
  pose proof (walk_directives_told None (fr_dirs f) st1) as T2. set (st2 := walk_directives V None (fr_dirs f) st1) in *.
  pose proof (walk_selections_told None (fr_sels f) st2) as T3.
  rewrite (outer_parent_type _ _ (walk_directives_outer V _ _ _) : parent_type st2 = parent_type st1) in T3.
  unfold emit_ok. cbn [per_frag per_op in_vardefs set]. set (st6 := emit false _ _).
  assert (T6 : told (fr_delta f) st1 st6) by (do 3 apply told_emit; exact (told_trans T2 T3)).
  destruct (T6 L1) as (_ & _ & _ & D & E & F). rewrite E, F, D. cbn. repeat split; [|exact Hv].
  rewrite upd_assoc_comp. reflexivity.
Qed.

Definition doc_per_op (doc : document) : list (string * scope_info) :=
  fold_left (fun acc o => upd_assoc String.eqb (op_key o) empty_si (app_si (op_delta o)) acc) (operations doc) [].
Definition doc_per_frag (doc : document) : list (string * scope_info) :=
  fold_left (fun acc f => upd_assoc String.eqb (fr_name f) empty_si (app_si (fr_delta f)) acc) (fragments doc) [].

Theorem walked_scopes doc : per_op (walked V doc) = doc_per_op doc /\ per_frag (walked V doc) = doc_per_frag doc.
Proof.
  unfold walked.
  assert (Hops : forall ops st, in_vardefs st = false ->
            per_op (fold_left (fun st o => walk_operation V o st) ops st) =
              fold_left (fun acc o => upd_assoc String.eqb (op_key o) empty_si (app_si (op_delta o)) acc) ops (per_op st) /\
            per_frag (fold_left (fun st o => walk_operation V o st) ops st) = per_frag st /\
            in_vardefs (fold_left (fun st o => walk_operation V o st) ops st) = false).
  { induction ops as [|o r IH]; intros st Hv; [repeat split; exact Hv|]. cbn [fold_left].
    destruct (walk_operation_scopes o st Hv) as (A & B & C). destruct (IH _ C) as (A' & B' & C'). rewrite A', B', A, B. repeat split. exact C'. }
  assert (Hfrs : forall frs st, in_vardefs st = false ->
            per_frag (fold_left (fun st f => walk_fragment V f st) frs st) =
              fold_left (fun acc f => upd_assoc String.eqb (fr_name f) empty_si (app_si (fr_delta f)) acc) frs (per_frag st) /\
            per_op (fold_left (fun st f => walk_fragment V f st) frs st) = per_op st).
  { induction frs as [|f r IH]; intros st Hv; [split; reflexivity|]. cbn [fold_left].
    destruct (walk_fragment_scopes f st Hv) as (A & B & C). destruct (IH _ C) as (A' & B'). rewrite A', B', A, B. split; reflexivity. }
  destruct (Hops (operations doc) init_ctx eq_refl) as (A & B & C).
  destruct (Hfrs (fragments doc) _ C) as (A' & B'). rewrite A', B', A, B. split; reflexivity.
Qed.

(* the three variable rules read nothing else *)
Definition books_ctx (doc : document) : vctx :=
  init_ctx <| per_op := doc_per_op doc |> <| per_frag := doc_per_frag doc |>.

Theorem variable_rules_pure doc :
  uses_defined_rule (walked V doc) (operations doc) = uses_defined_rule (books_ctx doc) (operations doc) /\
  variables_used_rule (walked V doc) (operations doc) = variables_used_rule (books_ctx doc) (operations doc) /\
  usages_allowed_rule V (walked V doc) (operations doc) = usages_allowed_rule V (books_ctx doc) (operations doc).
Proof. destruct (walked_scopes doc) as [Ho Hf]. exact (variable_rules_books V (books_ctx doc) (walked V doc) _ Ho Hf). Qed.

End Scopes.
