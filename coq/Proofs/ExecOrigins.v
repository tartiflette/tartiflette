(* C01 / C02: the executor against the specification, data and error accounting together.
   Whenever the specification's algorithm yields (data, origins) -- origins = the response paths at which a
   field error ORIGINATED -- the implementation model returns that data and the paths of its `errors`
   entries are origins (list indices included); with sibling fields coerced concurrently (every field of a
   selection set is executed, as in the specification) every origin is reported too. *)
From Coq Require Import ZArith List String.
From TV Require Import Py.Prelude Model.Schema Model.ImplInput Model.ImplExec Model.SpecExec
     Proofs.CollectRefine Proofs.MixedFields Proofs.ExecShape.
Import ListNotations.

Open Scope list_scope.

(* The specification's results in one shape. *)
Inductive sr (X : Type) :=
| Crash
| Fail (origins : list (list pkey))
| Val (x : X) (origins : list (list pkey)).
Arguments Crash {X}. Arguments Fail {X}. Arguments Val {X}.

Definition of_sres (r : sres) : sr pyval :=
  match r with SVal v o => Val v o | SFail o => Fail o | SCrash => Crash end.
(* an undefined field is skipped: no value, no origin *)
Definition of_field (r : option sres) : sr (option pyval) :=
  match r with
  | None => Val None []
  | Some (SVal v o) => Val (Some v) o
  | Some (SFail o) => Fail o
  | Some SCrash => Crash
  end.
Definition of_list {X} (t : option X * list (list pkey) * bool) : sr X :=
  match t with
  | (_, _, true) => Crash
  | (Some x, o, false) => Val x o
  | (None, o, false) => Fail o
  end.

(* every member is executed; the origins of all of them count *)
Definition smerge {A B C} (f : A -> B -> C) (r : sr A) (rs : sr B) : sr C :=
  match r, rs with
  | Crash, _ | _, Crash => Crash
  | Val a o, Val b o' => Val (f a b) (o ++ o')
  | Val _ o, Fail o' | Fail o, Val _ o' | Fail o, Fail o' => Fail (o ++ o')
  end.
Definition smap {A B} (f : A -> B) (r : sr A) : sr B :=
  match r with Crash => Crash | Fail o => Fail o | Val a o => Val (f a) o end.
Definition sabsorb (t : ty) (r : sr pyval) : sr pyval :=
  match r with Fail o => if is_non_null t then Fail o else Val PNone o | _ => r end.

Definition origins {X} (r : sr X) : list (list pkey) := match r with Crash => [] | Fail o | Val _ o => o end.
Definition failed {X} (r : sr X) : Prop := match r with Fail _ => True | _ => False end.

Lemma smerge_parts {A B C} (f : A -> B -> C) a b :
  smerge f a b <> Crash ->
  a <> Crash /\ b <> Crash /\ origins (smerge f a b) = origins a ++ origins b /\
  (failed (smerge f a b) <-> failed a \/ failed b).
Proof. destruct a, b; cbn; intros H; repeat split; try discriminate; tauto. Qed.

Lemma spec_fields_cons sf k ns rest :
  of_list (spec_fields sf ((k, ns) :: rest)) = smerge (cons_field k) (of_field (sf k ns)) (of_list (spec_fields sf rest)).
Proof.
  cbn [spec_fields]. destruct (spec_fields sf rest) as [[rkv ro] rc].
  destruct (sf k ns) as [[v o|o|]|], rkv, rc; reflexivity.
Qed.

Lemma spec_items_cons sci path i x xs :
  of_list (spec_items sci path i (x :: xs)) =
  smerge cons (of_sres (sci x (path ++ [KIdx i]))) (of_list (spec_items sci path (i + 1)%Z xs)).
Proof.
  cbn [spec_items]. destruct (spec_items sci path (i + 1)%Z xs) as [[rl ro] rc].
  destruct (sci x (path ++ [KIdx i])) as [v o|o|], rl, rc; reflexivity.
Qed.

Lemma of_sres_absorb t r : of_sres (absorb t r) = sabsorb t (of_sres r).
Proof. destruct r; cbn; [| destruct (is_non_null t)|]; reflexivity. Qed.

Lemma of_field_some r : of_field (Some r) = smap Some (of_sres r).
Proof. destruct r; reflexivity. Qed.

Section Origins.
Variable sch : schema.
Variable doc : document.
Variable vs : vars.
Variable U : usercode.
Variable cfg : config.
(* full = true: exact accounting (needs every sibling executed, Hmode below); full = false: inclusion only *)
Variable full : bool.

Definition opaths (o : list (list pkey)) : list (option (list pkey)) := map Some o.
(* where a travelling exception will be located: where it already is, or at the current position *)
Definition raised_at (p : list pkey) (l : list perr) : list (option (list pkey)) :=
  map (fun e => Some (match p_path e with Some q => q | None => p end)) l.
Definition reported (E : list gerr) : list (option (list pkey)) := map g_path E.

(* once located, an exception keeps its path wherever it travels *)
Definition all_located (l : list perr) : Prop := Forall (fun e => p_path e <> None) l.

(* the same paths occur (an origin may be reported by several errors, e.g. one per failing argument) *)
Definition sameset {X} (a b : list X) : Prop := forall x, In x a <-> In x b.
(* what is reported is an origin; with full accounting every origin is reported too *)
Definition rel {X} (a b : list X) : Prop := forall x, (In x a -> In x b) /\ (full = true -> In x b -> In x a).

Lemma raised_at_located p q l : all_located l -> raised_at p l = raised_at q l.
Proof.
  intros H. apply map_ext_in. intros e He. unfold all_located in H. rewrite Forall_forall in H. specialize (H e He).
  destruct (p_path e); [reflexivity|contradiction].
Qed.
Lemma raised_at_app p a b : raised_at p (a ++ b) = raised_at p a ++ raised_at p b.
Proof. apply map_app. Qed.
Lemma reported_app a b : reported (a ++ b) = reported a ++ reported b.
Proof. apply map_app. Qed.
Lemma opaths_app a b : opaths (a ++ b) = opaths a ++ opaths b.
Proof. apply map_app. Qed.

Lemma locate_paths nodes p l :
  raised_at p (map (locate nodes p) l) = raised_at p l /\ all_located (map (locate nodes p) l).
Proof.
  split.
  - unfold raised_at. rewrite map_map. apply map_ext. intros e. cbn. now destruct (p_path e).
  - apply Forall_map, Forall_forall. intros e _. cbn. destruct (p_path e); discriminate.
Qed.

Lemma reported_finalize p l : all_located l -> reported (map finalize l) = raised_at p l.
Proof.
  intros H. unfold reported. rewrite map_map. apply map_ext_in. intros e He. unfold all_located in H. rewrite Forall_forall in H.
  specialize (H e He). cbn. destruct (p_path e); [reflexivity|contradiction].
Qed.

Lemma rel_incl {X} (a b : list X) : rel a b -> incl a b.
Proof. intros H x. apply H. Qed.
Lemma incl_rel {X} (a b : list X) : full = false -> incl a b -> rel a b.
Proof. intros Hf H x. split; [apply H|rewrite Hf; discriminate]. Qed.

(* membership in appended lists, pointwise *)
Ltac sset :=
  unfold rel in *; let x := fresh "x" in intros x;
  repeat match goal with H : forall y, (In y _ -> In y _) /\ _ |- _ => specialize (H x) end;
  rewrite ?reported_app, ?raised_at_app, ?opaths_app in *; cbn [reported raised_at opaths map app] in *;
  rewrite ?in_app_iff in *; tauto.
Definition emit {X} (m : M X) (Q : outcome X -> list gerr -> Prop) : Prop :=
  forall s, exists E, s_errors (snd (m s)) = s_errors s ++ E /\ Q (fst (m s)) E.

Lemma emit_ret {X} (r : outcome X) (Q : outcome X -> list gerr -> Prop) : Q r [] -> emit (ret r) Q.
Proof. intros H s. exists []. now rewrite app_nil_r. Qed.

Lemma emit_andthen {X Y} (m : M X) (k : outcome X -> M Y) (Q1 : outcome X -> list gerr -> Prop) Q2 :
  emit m Q1 -> (forall r E, Q1 r E -> emit (k r) (fun r' E' => Q2 r' (E ++ E'))) -> emit (andthen m k) Q2.
Proof.
  intros H1 H2 s. unfold andthen. destruct (H1 s) as (E1 & HE1 & P1). destruct (m s) as [r s1]. cbn [fst snd] in *.
  destruct (H2 r E1 P1 s1) as (E2 & HE2 & P2). exists (E1 ++ E2). now rewrite HE2, HE1, app_assoc.
Qed.

Lemma emit_ext {X} (m m' : M X) Q : (forall s, m s = m' s) -> emit m' Q -> emit m Q.
Proof. intros H H' s. rewrite H. apply H'. Qed.

Lemma emit_pre {X} (m : M X) (g : st -> st) Q :
  (forall s, s_errors (g s) = s_errors s) -> emit m Q -> emit (fun s => m (g s)) Q.
Proof. intros Hg H s. destruct (H (g s)) as (E & HE & P). exists E. split; [now rewrite HE, Hg|exact P]. Qed.

(* The simulation: data and accounting.
   `at_`: Some p where what is raised may still lack a path and will be located at p; None where located_error
   has run, so that what is raised carries its path. *)
Definition post {X} (at_ : option (list pkey)) (r : sr X) (x : outcome X) (E : list gerr) : Prop :=
  match r with
  | Crash => True
  | Val v o => x = OVal v /\ rel (reported E) (opaths o)
  | Fail o => exists l, x = OExc l /\ (at_ = None -> all_located l) /\
                        rel (reported E ++ raised_at (match at_ with Some p => p | None => [] end) l) (opaths o)
  end.
(* nothing is claimed where the specification itself has no result (out of fuel, missing fragment) *)
Definition acct {X} (at_ : option (list pkey)) (m : M X) (r : sr X) : Prop :=
  match r with Crash => True | _ => emit m (post at_ r) end.

Lemma acct_ext {X} w (m m' : M X) r : (forall s, m s = m' s) -> acct w m' r -> acct w m r.
Proof. destruct r; [trivial|apply emit_ext..]. Qed.

Lemma acct_pre {X} w (m : M X) (g : st -> st) r :
  (forall s, s_errors (g s) = s_errors s) -> acct w m r -> acct w (fun s => m (g s)) r.
Proof. destruct r; [trivial|apply emit_pre..]. Qed.

Lemma acct_ret_val {X} w (v : X) : acct w (ret (OVal v)) (Val v []).
Proof. apply emit_ret. split; [reflexivity|]. intros x. tauto. Qed.

(* exceptions without a path are located where they surface *)
Lemma acct_ret_unlocated {X} p l :
  l <> [] -> Forall (fun e => p_path e = None) l -> acct (Some p) (ret (A := X) (OExc l)) (Fail [p]).
Proof.
  intros Hne Hl. apply emit_ret. exists l. split; [reflexivity|]. split; [discriminate|].
  rewrite Forall_forall in Hl. split.
  - intros Hx. apply in_map_iff in Hx. destruct Hx as (e & <- & He). rewrite (Hl e He). now left.
  - intros _ [<-|[]]. destruct l as [|e l]; [contradiction|]. left. now rewrite (Hl e (or_introl eq_refl)).
Qed.

Lemma acct_ret_fresh {X} p nodes l : fresh_exn nodes l -> acct (Some p) (ret (A := X) (OExc l)) (Fail [p]).
Proof. intros (e & -> & He & _). apply acct_ret_unlocated; [discriminate|]. now constructor. Qed.

(* a located exception keeps its path wherever it is looked at *)
Lemma acct_unlocate {X} p (m : M X) r : acct None m r -> acct (Some p) m r.
Proof.
  destruct r as [|o|v o]; [trivial| |exact (fun H => H)]. intros H s. destruct (H s) as (E & HE & l & Hx & Hl & Hr).
  exists E. split; [exact HE|]. exists l. split; [exact Hx|]. split; [discriminate|].
  now rewrite (raised_at_located p [] l (Hl eq_refl)).
Qed.

Lemma acct_lift {X Y} w (g : X -> Y) (m : M X) r :
  acct w m r -> acct w (andthen m (fun x => ret (lift g x))) (smap g r).
Proof.
  destruct r as [|o|v o]; [trivial|..]; intros H; (eapply emit_andthen; [exact H|]); intros x E P; apply emit_ret;
    rewrite app_nil_r.
  - destruct P as (l & -> & P). exists l. now split.
  - destruct P as [-> P]. now split.
Qed.

(* gather: both run, from whatever state; errors and origins add up *)
Lemma acct_gather {A B C} (f : A -> B -> C) (m : M A) (ms : M B) r rs :
  acct None m r -> acct None ms rs ->
  acct None (andthen m (fun x => andthen ms (fun xs => ret (merge f x xs)))) (smerge f r rs).
Proof.
  destruct r as [|o|a o], rs as [|o'|b o']; try exact (fun _ _ => I); intros H1 H2;
    (eapply emit_andthen; [exact H1|]); intros x E1 P1; (eapply emit_andthen; [exact H2|]); intros xs E2 P2;
    apply emit_ret; rewrite app_nil_r.
  - destruct P1 as (l & -> & L1 & R1), P2 as (l' & -> & L2 & R2). exists (l ++ l'). split; [reflexivity|].
    split; [intros _; apply Forall_app; split; [apply L1|apply L2]; reflexivity|sset].
  - destruct P1 as (l & -> & L1 & R1), P2 as [-> R2]. exists l. split; [reflexivity|]. split; [exact L1|sset].
  - destruct P1 as [-> R1], P2 as (l' & -> & L2 & R2). exists l'. split; [reflexivity|]. split; [exact L2|sset].
  - destruct P1 as [-> R1], P2 as [-> R2]. split; [reflexivity|sset].
Qed.

(* catching at a handled position: raised becomes absorbed (recorded at the paths it will be reported
   with) or located *)
Lemma acct_catch nodes p t (m : M pyval) r :
  acct (Some p) m r -> acct None (catch nodes p t m) (sabsorb t r).
Proof.
  destruct r as [|o|v o]; [trivial|..]; intros H.
  - assert (Hc : emit (catch nodes p t m)
                   (fun x E => if is_non_null t then post None (Fail o) x E else post None (Val PNone o) x E)).
    { eapply emit_andthen; [exact H|]. intros x E (l & -> & _ & R). intros s. rewrite handle_field_error_eq.
      destruct (locate_paths (locs_of nodes) p l) as [Hp Hl]. destruct (is_non_null t).
      - exists []. rewrite !app_nil_r. split; [reflexivity|]. eexists. split; [reflexivity|]. split; [trivial|].
        now rewrite (raised_at_located [] p _ Hl), Hp.
      - eexists. split; [reflexivity|]. split; [reflexivity|]. now rewrite reported_app, (reported_finalize p _ Hl), Hp. }
    cbn [sabsorb]. destruct (is_non_null t); exact Hc.
  - eapply emit_andthen; [exact H|]. intros x E [-> R]. apply emit_ret. rewrite app_nil_r. now split.
Qed.

Section Fields.
Variable rf : string -> list fnode -> M (option pyval).
Variable sf : string -> list fnode -> option sres.
Hypothesis Hrf : forall k ns, acct None (rf k ns) (of_field (sf k ns)).

Lemma conc_acct fs : acct None (exec_fields_conc rf fs) (of_list (spec_fields sf fs)).
Proof.
  induction fs as [|[k ns] rest IH]; [apply acct_ret_val|]. rewrite spec_fields_cons.
  eapply acct_ext; [apply conc_cons|]. apply acct_gather; [apply Hrf|exact IH].
Qed.

(* per-field settings, inclusion only.  What the first pass leaves in a slot is what the specification has for
   that field (a deferred field's slot is empty); the second pass then is a gather over results partly known. *)
Variable isc : string -> list fnode -> bool.
Definition slot_ok (kn : string * list fnode) (slot : option (option pyval)) : Prop :=
  match slot with
  | None => True
  | Some o => exists org, of_field (sf (fst kn) (snd kn)) = Val o org
  end.

Lemma pass1_acct fs : of_list (spec_fields sf fs) <> Crash ->
  emit (mixed_pass1 isc rf fs) (fun x E =>
    match x with
    | OVal slots => Forall2 slot_ok fs slots /\ incl (reported E) (opaths (origins (of_list (spec_fields sf fs))))
    | OExc l => failed (of_list (spec_fields sf fs)) /\ all_located l /\
                incl (reported E ++ raised_at [] l) (opaths (origins (of_list (spec_fields sf fs))))
    | OCrash _ => False
    end).
Proof.
  (* the first pass awaits in place and stops at the first raise, so only inclusion holds; a raise here means the
     specification fails too (Hfail) *)
  induction fs as [|[k ns] rest IH]; intros Hnc.
  - apply emit_ret. split; [constructor|intros x []].
  - rewrite spec_fields_cons in *. destruct (smerge_parts _ _ _ Hnc) as (Hk & Hr & -> & Hfail). specialize (IH Hr).
    eapply emit_ext; [apply pass1_cons|]. destruct (isc k ns).
    + eapply emit_andthen; [exact IH|]. intros [slots|l|e] E P; apply emit_ret; rewrite app_nil_r.
      * destruct P as [HF R]. split; [constructor; [exact I|exact HF]|]. rewrite opaths_app. now apply incl_appr.
      * destruct P as (F & L & R). split; [apply Hfail; now right|]. split; [exact L|]. rewrite opaths_app. now apply incl_appr.
      * exact P.
    + pose proof (Hrf k ns) as Hrk.
      destruct (of_field (sf k ns)) as [|o|a o] eqn:Ef; [contradiction|..];
        (eapply emit_andthen; [exact Hrk|]); intros x E1 P1.
      * destruct P1 as (l & -> & L & R). apply emit_ret. rewrite app_nil_r. split; [apply Hfail; now left|].
        split; [now apply L|]. rewrite opaths_app. apply incl_appl, rel_incl, R.
      * destruct P1 as [-> R1]. eapply emit_andthen; [exact IH|].
        intros [slots|l|e] E2 P; apply emit_ret; rewrite app_nil_r.
        -- destruct P as [HF R]. split; [constructor; [exists o; exact Ef|exact HF]|].
           rewrite reported_app, opaths_app. apply incl_app_app; [apply rel_incl, R1|exact R].
        -- destruct P as (F & L & R). split; [apply Hfail; now right|]. split; [exact L|].
           rewrite reported_app, opaths_app, <- app_assoc. apply incl_app_app; [apply rel_incl, R1|exact R].
        -- exact P.
Qed.

Lemma pass2_acct fs : full = false -> forall slots, Forall2 slot_ok fs slots ->
  acct None (mixed_pass2 rf fs slots) (of_list (spec_fields sf fs)).
Proof.
  intros Hfull slots HF. induction HF as [|[k ns] slot rest srest Hs HF IH]; [apply acct_ret_val|].
  rewrite spec_fields_cons. eapply acct_ext; [apply pass2_cons|]. apply acct_gather; [|exact IH].
  destruct slot as [o|]; [|apply Hrf]. cbn [slot_ok fst snd] in Hs. destruct Hs as (org & ->).
  apply emit_ret. split; [reflexivity|]. apply incl_rel; [exact Hfull|intros x []].
Qed.

Lemma mixed_acct fs : full = false -> acct None (exec_fields_mixed isc rf fs) (of_list (spec_fields sf fs)).
Proof.
  (* what the first pass reported and what the second reports or raises both lie among the origins; with full =
     false inclusion is all that rel asks *)
  intros Hfull. pose proof (pass1_acct fs) as H1. pose proof (pass2_acct fs Hfull) as H2.
  destruct (of_list (spec_fields sf fs)) as [|o|kv o]; [exact I|..].
  all: specialize (H1 ltac:(discriminate)); (eapply emit_andthen; [exact H1|]); intros [slots|l|e] E1 P1; [| |contradiction].
  (* the specification fails: the first pass returned slots, or raised; then the same where it succeeds *)
  - destruct P1 as [HF R1]. intros s. destruct (H2 slots HF s) as (E2 & HE2 & l & Hx & L & R2).
    exists E2. split; [exact HE2|]. exists l. split; [exact Hx|]. split; [exact L|]. apply incl_rel; [exact Hfull|].
    rewrite reported_app, <- app_assoc. apply incl_app; [exact R1|apply rel_incl, R2].
  - destruct P1 as (_ & L & R). apply emit_ret. rewrite app_nil_r. exists l. split; [reflexivity|].
    split; [intros _; exact L|now apply incl_rel].
  - destruct P1 as [HF R1]. intros s. destruct (H2 slots HF s) as (E2 & HE2 & Hx & R2).
    exists E2. split; [exact HE2|]. split; [exact Hx|]. apply incl_rel; [exact Hfull|].
    rewrite reported_app. apply incl_app; [exact R1|apply rel_incl, R2].
  - destruct P1 as [[] _].
Qed.
End Fields.

(* awaited one by one: a corner case of the two-pass walk *)
Lemma seq_acct rf sf fs :
  (forall k ns, acct None (rf k ns) (of_field (sf k ns))) -> full = false ->
  acct None (exec_fields_seq rf fs) (of_list (spec_fields sf fs)).
Proof.
  intros Hrf Hfull. eapply acct_ext; [symmetry; apply (mixed_all_seq rf (fun _ _ => false)); reflexivity|].
  now apply mixed_acct.
Qed.

Lemma items_acct (ci : pyval -> list pkey -> M pyval) sci path :
  (forall x p, acct None (ci x p) (of_sres (sci x p))) ->
  forall items i, acct None (complete_items ci path i items) (of_list (spec_items sci path i items)).
Proof.
  intros H. induction items as [|x xs IH]; intros i; [apply acct_ret_val|]. rewrite spec_items_cons.
  eapply acct_ext; [apply items_cons|]. apply acct_gather; [apply H|apply IH].
Qed.

Definition rf_acct (rf : rfun) (sf : sfun) : Prop :=
  forall otype value opath k ns,
    acct None (rf otype value opath k ns) (of_field (sf otype value opath k ns)).

Hypothesis Hmode : full = true -> forall t k ns, field_conc cfg t k ns = true.

(* every field executed where the accounting is exact; the two-pass walk otherwise *)
Lemma fields_acct rt rf sf fs :
  (forall k ns, acct None (rf k ns) (of_field (sf k ns))) ->
  acct None (exec_fields_mixed (field_conc cfg rt) rf fs) (of_list (spec_fields sf fs)).
Proof.
  intros H. destruct (Bool.bool_dec full true) as [Ef|Ef].
  - eapply acct_ext; [intros; apply mixed_all_conc, (Hmode Ef)|]. now apply conc_acct.
  - apply mixed_acct; [exact H|now apply Bool.not_true_is_false].
Qed.

Lemma spec_object_eq sf nodes otype value opath :
  of_sres (spec_object sch doc vs sf nodes otype value opath) =
  match collect_subfields sch doc vs COLLECT_FUEL otype nodes [] [] with
  | None => Crash
  | Some sub => smap PDict (of_list (spec_fields (fun k ns => sf otype value opath k ns) sub))
  end.
Proof.
  unfold spec_object. rewrite collect_subfields_is_spec. destruct (spec_collect_fields _ _ _ _ _ _); [|reflexivity].
  destruct (spec_fields _ _) as [[[kv|] o] []]; reflexivity.
Qed.

Lemma exec_sub_acct rf sf nodes otype value opath :
  rf_acct rf sf ->
  acct None (exec_sub sch doc vs cfg rf nodes otype value opath) (of_sres (spec_object sch doc vs sf nodes otype value opath)).
Proof.
  intros H. rewrite spec_object_eq. eapply acct_ext; [apply exec_sub_eq|].
  destruct (collect_subfields sch doc vs COLLECT_FUEL otype nodes [] []) as [sub|]; [|exact I].
  apply acct_lift, fields_acct. apply H.
Qed.

Section Chain.
Variable rf : rfun.
Variable sf : sfun.
Hypothesis Hrf : rf_acct rf sf.
Variable ptype : string.
Variable fd : field_def.
Variable nodes : list fnode.
Variable fpath : list pkey.

Definition sres_of_leaf (lp : list pkey) (x : outcome pyval) : sres :=
  match x with OVal r => SVal r [] | OExc _ => fail_here lp | OCrash _ => SCrash end.

Lemma spec_complete_named n v lp :
  spec_complete sch doc vs U sf ptype fd nodes fpath (TNamed n) v lp =
  match find_type sch n with
  | Some (DInput _) | None => fail_here lp
  | Some k =>
      if is_none v then SVal PNone []
      else match k with
           | DScalar => sres_of_leaf lp (scalar_leaf sch n v)
           | DEnum values => sres_of_leaf lp (enum_leaf values v)
           | DObject _ _ => spec_object sch doc vs sf nodes n v lp
           | _ => match abstract_type sch U ptype fd nodes fpath n v with
                  | OVal rt => spec_object sch doc vs sf nodes rt v lp
                  | _ => fail_here lp
                  end
           end
  end.
Proof.
  assert (Ha : spec_runtime_type sch U ptype fd fpath n v =
               match abstract_type sch U ptype fd nodes fpath n v with OVal rt => Some rt | _ => None end).
  { unfold spec_runtime_type, abstract_type, resolve_runtime_type.
    destruct (match type_resolver_kind U n ptype (fd_name fd) with TRDefault => _ | TRCustom => _ end) as [[]|];
      try reflexivity.
    destruct (find_type sch s) as [[]|]; try reflexivity. destruct (mem_str s (possible_types sch n)); reflexivity. }
  cbn [spec_complete]. rewrite Ha, (match_none v).
  destruct (find_type sch n) as [[ |values|ins|ifs fs|ifields|ms]|]; destruct (is_none v); try reflexivity.
  - unfold scalar_leaf. destruct (scalars sch n) as [ops|]; [|reflexivity].
    destruct (s_output ops v) as [r|[]]; try reflexivity. destruct (is_undef r); reflexivity.
  - unfold enum_leaf. destruct v; try reflexivity. destruct (mem_str s values); reflexivity.
  - destruct (abstract_type sch U ptype fd nodes fpath n v); reflexivity.
  - destruct (abstract_type sch U ptype fd nodes fpath n v); reflexivity.
Qed.

Lemma acct_leaf_ret lp x : (forall l, x = OExc l -> fresh_exn nodes l) -> acct (Some lp) (ret x) (of_sres (sres_of_leaf lp x)).
Proof. intros H. destruct x as [r|l|e]; [apply acct_ret_val|eapply acct_ret_fresh, H; reflexivity|exact I]. Qed.

Lemma leaf_acct n v lp :
  acct (Some lp) (leaf_coercer sch doc vs U cfg rf ptype fd nodes fpath n v lp)
    (of_sres (spec_complete sch doc vs U sf ptype fd nodes fpath (TNamed n) v lp)).
Proof.
  rewrite spec_complete_named. eapply acct_ext; [apply leaf_coercer_eq|].
  assert (Hno : acct (Some lp) (ret (A := pyval) (OExc [engine_err "no-output-coercer"])) (of_sres (fail_here lp)))
    by apply (acct_ret_fresh _ nodes), fresh_exn_raw.
  assert (Hsub : forall rt, acct (Some lp) (exec_sub sch doc vs cfg rf nodes rt v lp)
                              (of_sres (spec_object sch doc vs sf nodes rt v lp)))
    by (intros; now apply acct_unlocate, exec_sub_acct).
  assert (Habs : acct (Some lp) (abstract_leaf sch doc vs U cfg rf ptype fd nodes fpath n v lp)
            (of_sres match abstract_type sch U ptype fd nodes fpath n v with
                     | OVal rt => spec_object sch doc vs sf nodes rt v lp
                     | _ => fail_here lp
                     end)).
  { unfold abstract_leaf. destruct (abstract_type sch U ptype fd nodes fpath n v) as [rt|l|e] eqn:Ea.
    - apply (acct_pre _ (exec_sub sch doc vs cfg rf nodes rt v lp)), Hsub. apply abstract_state_errors.
    - apply (acct_pre _ (ret (OExc l))); [apply abstract_state_errors|]. eapply acct_ret_fresh, abstract_type_fresh, Ea.
    - now apply abstract_type_no_crash in Ea. }
  destruct (find_type sch n) as [[ |values|ins|ifs fs|ifields|ms]|]; try exact Hno;
    (destruct (is_none v); [apply acct_ret_val|]).
  - apply acct_leaf_ret, scalar_leaf_fresh.
  - apply acct_leaf_ret, enum_leaf_fresh.
  - apply Hsub.
  - apply Habs.
  - apply Habs.
Qed.

Let leaf := leaf_coercer sch doc vs U cfg rf ptype fd nodes fpath.

(* a returned exception object is raised at the position it was returned for *)
Definition spec_completed (t : ty) (v : pyval) (p : list pkey) : sres :=
  match is_exc_value v with
  | Some _ => fail_here p
  | None => spec_complete sch doc vs U sf ptype fd nodes fpath t v p
  end.

Lemma coerce_output_acct t : forall v p,
  acct (Some p) (coerce_output nodes leaf t v p) (of_sres (spec_complete sch doc vs U sf ptype fd nodes fpath t v p)).
Proof.
  (* a list is items_acct over the per-item catch of `completed`, matched with absorb of spec_completed; at Non-
     Null a null value becomes an exception located here, the specification's fail_here p *)
  induction t as [n|t IH|t IH]; intros v p.
  - apply leaf_acct.
  - assert (Hitem : forall x q, acct None (catch nodes q t (completed nodes leaf t x q))
                                  (of_sres (absorb t (spec_completed t x q)))).
    { intros x q. rewrite of_sres_absorb. apply acct_catch. unfold completed, spec_completed.
      destruct (is_exc_value x) as [e|] eqn:Ex; [apply (acct_ret_fresh _ nodes), (is_exc_value_fresh nodes _ _ Ex)|apply IH]. }
    eapply acct_ext; [apply coerce_output_list|]. cbn [spec_complete].
    destruct v; try apply acct_ret_val; try apply (acct_ret_fresh _ nodes), fresh_exn_raw.
    pose proof (acct_lift _ PList _ _ (acct_unlocate p _ _
                 (items_acct _ (fun x q => absorb t (spec_completed t x q)) p Hitem l 0%Z))) as Hl.
    destruct (spec_items _ p 0%Z l) as [[[r|] o] []]; exact Hl.
  - eapply acct_ext; [apply coerce_output_nonnull|]. cbn [spec_complete]. specialize (IH v p).
    destruct (spec_complete sch doc vs U sf ptype fd nodes fpath t v p) as [v' o|o|]; [| |exact I].
    + destruct v'; (eapply emit_andthen; [exact IH|]); intros x E [-> R]; apply emit_ret;
        rewrite app_nil_r; try (split; [reflexivity|exact R]).
      eexists. split; [reflexivity|]. split; [discriminate|]. sset.
    + (eapply emit_andthen; [exact IH|]); intros x E (l & -> & P); apply emit_ret.
      rewrite app_nil_r. exists l. now split.
Qed.
End Chain.

Lemma spec_field_body_eq sf ptype source ppath key node rest :
  spec_field_body sch doc vs U sf ptype source ppath key (node :: rest) =
  match get_field_definition sch ptype (fn_name node) with
  | None => None
  | Some fd =>
      let path := ppath ++ [KName key] in
      Some (absorb (fd_type fd)
              match fst (resolved sch vs U ptype source path fd node) with
              | OVal v => spec_completed sf ptype fd (node :: rest) path (fd_type fd) v path
              | OExc _ => fail_here path
              | OCrash _ => SCrash
              end)
  end.
Proof.
  unfold spec_field_body, resolved. destruct (get_field_definition sch ptype (fn_name node)) as [fd|]; [|reflexivity].
  destruct (String.eqb (fn_name node) "__typename"); [reflexivity|].
  destruct (coerce_arguments sch 20 _ _ _ vs) as [[args [|ae aes]]|e]; try reflexivity.
  destruct (has_resolver U ptype (fd_name fd)); [|reflexivity].
  destruct (resolver U _ ptype (fd_name fd) source args); reflexivity.
Qed.

Lemma resolve_field_body_acct rf sf :
  rf_acct rf sf -> rf_acct (resolve_field_body sch doc vs U cfg rf) (spec_field_body sch doc vs U sf).
Proof.
  intros Hrf ptype source ppath key [|node rest]; [exact I|].
  rewrite spec_field_body_eq. eapply acct_ext; [apply resolve_field_body_eq|].
  destruct (get_field_definition sch ptype (fn_name node)) as [fd|]; [|apply acct_ret_val].
  set (path := ppath ++ [KName key]). rewrite of_field_some, of_sres_absorb.
  eapply acct_ext; [intros s; unfold andthen; rewrite resolve_value_eq; reflexivity|].
  apply (acct_pre _ (fun s => _ s)); [reflexivity|].
  pose proof (resolved_unlocated sch vs U ptype source path fd node) as Hun.
  destruct (fst (resolved sch vs U ptype source path fd node)) as [v|l|e]; [| |exact I].
  - eapply acct_ext; [apply complete_field_eq|]. apply acct_lift, acct_catch. unfold completed, spec_completed.
    destruct (is_exc_value v) as [e|] eqn:Ex; [apply (acct_ret_fresh _ (node :: rest)), (is_exc_value_fresh _ _ _ Ex)|now apply coerce_output_acct].
  - eapply acct_ext; [apply complete_field_eq|]. apply acct_lift, acct_catch.
    now apply acct_ret_unlocated; apply (Hun l).
Qed.

Theorem resolve_field_acct fuel : rf_acct (resolve_field sch doc vs U cfg fuel) (spec_field sch doc vs U fuel).
Proof.
  induction fuel as [|fuel IH]; [intros ? ? ? ? ?; exact I|].
  now apply resolve_field_body_acct.
Qed.

(* ExecuteQuery / ExecuteMutation:
   whenever the specification's algorithm yields (data, origins), the implementation model answers
   with that data and its "errors" entry accounts for the origins: every reported error carries a path,
   and that path is an origin; with exact accounting every origin is the path of some reported error *)
Theorem execute_operation_accounts op root d o :
  (full = true -> o_kind op <> OpMutation) ->
  spec_execute_operation sch doc vs U op root = Some (d, o) ->
  exists r, execute_operation sch doc vs U cfg op root = OVal r /\ r_data r = d /\
            rel (map g_path (r_errors r)) (map Some o).
Proof.
  intros Hk. rewrite execute_operation_eq. unfold spec_execute_operation, spec_collect_fields.
  destruct (root_type_of sch (o_kind op)) as [rt|]; [|discriminate]. rewrite collect_fields_refines_spec.
  destruct (spec_collect sch doc vs COLLECT_FUEL rt (o_sels op) []) as [[flat v]|]; [|discriminate].
  set (sf := fun k ns => spec_field sch doc vs U EXEC_FUEL rt root [] k ns).
  assert (Hf : forall k ns, acct None (resolve_field sch doc vs U cfg EXEC_FUEL rt root [] k ns) (of_field (sf k ns)))
    by (apply resolve_field_acct).
  assert (Hrun : acct None (run_operation sch doc vs U cfg op rt root (group_fields flat [])) (of_list (spec_fields sf (group_fields flat [])))).
  { unfold run_operation. destruct (o_kind op); try (eapply fields_acct, Hf).
    eapply seq_acct; [exact Hf|]. apply Bool.not_true_is_false. intros Ef. now apply (Hk Ef). }
  destruct (spec_fields sf (group_fields flat [])) as [[[kv|] ro] []]; intros Eq; inversion Eq; subst;
    destruct (Hrun st0) as (E & HE & P); destruct (run_operation _ _ _ _ _ _ _ _ _ st0) as [x s]; cbn [fst snd] in *.
  - destruct P as [-> R]. eexists. split; [reflexivity|]. split; [reflexivity|]. now rewrite HE.
  - destruct P as (l & -> & L & R). eexists. split; [reflexivity|]. split; [reflexivity|].
    cbn [r_errors add_errors s_errors]. rewrite HE.
    now rewrite reported_app, (reported_finalize [] l (L eq_refl)).
Qed.

End Origins.

(* exact accounting: queries / subscription sources with every sibling executed *)
Theorem execute_operation_accounts_exact sch doc vs U cfg op root d o :
  (forall t k ns, field_conc cfg t k ns = true) -> o_kind op <> OpMutation ->
  spec_execute_operation sch doc vs U op root = Some (d, o) ->
  exists r, execute_operation sch doc vs U cfg op root = OVal r /\ r_data r = d /\
            sameset (map g_path (r_errors r)) (map Some o).
Proof.
  intros Hc Hk Hs.
  destruct (execute_operation_accounts sch doc vs U cfg true (fun _ => Hc) op root d o (fun _ => Hk) Hs) as (r & Hr & Hd & Hp).
  exists r. split; [exact Hr|]. split; [exact Hd|]. intros x. destruct (Hp x) as [H1 H2]. split; [exact H1|exact (H2 eq_refl)].
Qed.

(* every operation kind, every configuration: the data is the specified one and no entry of
   `errors` points anywhere but at a failure origin of the specification *)
Theorem execute_operation_accounts_incl sch doc vs U cfg op root d o :
  spec_execute_operation sch doc vs U op root = Some (d, o) ->
  exists r, execute_operation sch doc vs U cfg op root = OVal r /\ r_data r = d /\
            forall e, In e (r_errors r) -> exists p, g_path e = Some p /\ In p o.
Proof.
  intros Hs.
  assert (Hm : false = true -> forall t k ns, field_conc cfg t k ns = true) by discriminate.
  assert (Hk : false = true -> o_kind op <> OpMutation) by discriminate.
  destruct (execute_operation_accounts sch doc vs U cfg false Hm op root d o Hk Hs) as (r & Hr & Hd & Hp).
  exists r. split; [exact Hr|]. split; [exact Hd|]. intros e Hin.
  pose proof (proj1 (Hp (g_path e)) (in_map g_path _ _ Hin)) as Hx.
  apply in_map_iff in Hx. destruct Hx as (p & Hpe & Hinp). exists p. split; [now symmetry|assumption].
Qed.
