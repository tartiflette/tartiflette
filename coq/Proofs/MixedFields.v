(* execute_fields with per-field settings (Model/ImplExec.v exec_fields_mixed): when every field of the
   selection set is concurrent it is exec_fields_conc, when every field is sequential it is
   exec_fields_seq -- so the uniform configurations are the two corner cases of one definition. *)
From Coq Require Import List String.
From TV Require Import Py.Prelude Model.ImplExec.

Section Mixed.
Variable rf : string -> list fnode -> M (option pyval).

Lemma pass1_all_conc isc fs s :
  (forall k ns, isc k ns = true) ->
  mixed_pass1 isc rf fs s = (OVal (map (fun _ => None) fs), s).
Proof.
  intros H. induction fs as [|[k nodes] rest IH]; cbn [mixed_pass1 map]; [reflexivity|].
  rewrite H, IH. reflexivity.
Qed.

Lemma pass2_all_deferred fs s :
  mixed_pass2 rf fs (map (fun _ => None) fs) s = exec_fields_conc rf fs s.
Proof.
  revert s. induction fs as [|[k nodes] rest IH]; intros s; cbn [mixed_pass2 exec_fields_conc map]; [reflexivity|].
  destruct (rf k nodes s) as [r s1]. rewrite IH. reflexivity.
Qed.

Theorem mixed_all_conc isc fs s :
  (forall k ns, isc k ns = true) -> exec_fields_mixed isc rf fs s = exec_fields_conc rf fs s.
Proof. intros H. unfold exec_fields_mixed. rewrite (pass1_all_conc isc fs s H). apply pass2_all_deferred. Qed.

Theorem mixed_all_seq isc fs s :
  (forall k ns, isc k ns = false) -> exec_fields_mixed isc rf fs s = exec_fields_seq rf fs s.
Proof.
  intros H. unfold exec_fields_mixed. revert s.
  induction fs as [|[k nodes] rest IH]; intros s; cbn [mixed_pass1 exec_fields_seq]; [reflexivity|].
  rewrite H. destruct (rf k nodes s) as [[o|l|e] s1]; try reflexivity.
  specialize (IH s1). destruct (mixed_pass1 isc rf rest s1) as [[slots|l|e] s2].
  - cbn [mixed_pass2]. rewrite IH. reflexivity.
  - rewrite <- IH. reflexivity.
  - rewrite <- IH. reflexivity.
Qed.
End Mixed.
