(* C05: the implementation model of argument coercion (coercers/argument.py argument_coercer,
   coercers/arguments.py coerce_arguments) REFINES the specification's CoerceArgumentValues: for every
   argument definition, node, variable map and fuel, with the engine's literal coercer chain as the
   coercion of literals, the same entry is added (or none), and an argument error is raised exactly
   when the specification throws a field error. *)
From Coq Require Import List String Bool.
From TV Require Import Py.Prelude Model.Schema Model.ImplInput Model.SpecArgs Proofs.ListFacts.
Import ListNotations.

Section Refine.
Variable sch : schema.

(* the engine's literal coercion as the specification's "coerce value according to the input coercion rules" *)
Definition impl_coerce_literal (fuel : nat) (vs : vars) (t : ty) (node : lit) : res (option pyval) :=
  bind (get_literal_coercer sch fuel t vs false node) (fun v => if is_undef v then Ok None else Ok (Some v)).

Definition outcome_matches (o : arg_outcome) (s : sarg) : Prop :=
  match o, s with
  | AUndefined, SAbsent => True
  | AVal v, SValue w => v = w
  | AErr _, SFieldError => True
  | _, _ => False
  end.

Definition res_matches (a : res arg_outcome) (b : res sarg) : Prop :=
  match a, b with
  | Ok o, Ok s => outcome_matches o s
  | Raise e, Raise e' => e = e'
  | _, _ => False
  end.

(* What an argument node provides.  Both argument_coercer and the specification's rule decide on
   four situations only; they are named here once, and each side is rewritten as a function of the
   situation. *)
Inductive given :=
| GNothing (eloc : loc) (k : aerr_kind)  (* no node, or a variable without a runtime value; where and
                                            how a required argument is then reported missing *)
| GNull (l : loc)
| GVar (l : loc) (v : pyval)             (* a variable with the runtime value v *)
| GLit (node : lit).                     (* any other literal *)

Definition given_of (floc : loc) (anode : option argument) (vs : vars) : given :=
  match anode with
  | None => GNothing floc ARequired
  | Some a =>
      match a_value a with
      | LVar l x => match dict_get x vs with Some v => GVar l v | None => GNothing l AVarNotProvided end
      | LNull l => GNull l
      | node => GLit node
      end
  end.

Definition coerce_lit (fuel : nat) (ad : input_def) (vs : vars) (node : lit) (eloc : loc) : res arg_outcome :=
  bind (get_literal_coercer sch fuel (in_type ad) vs false node)
       (fun v => if is_undef v then Ok (AErr (in_name ad, AInvalidValue, eloc)) else Ok (AVal v)).

Definition coerce_given (fuel : nat) (ad : input_def) (vs : vars) (g : given) : res arg_outcome :=
  match g with
  | GNothing eloc k =>
      match in_default ad with
      | Some d => coerce_lit fuel ad vs d eloc
      | None => if is_non_null (in_type ad) then Ok (AErr (in_name ad, k, eloc)) else Ok AUndefined
      end
  | GNull l => if is_non_null (in_type ad) then Ok (AErr (in_name ad, ANonNullNull, l)) else Ok (AVal PNone)
  | GVar l v =>
      if is_none v && is_non_null (in_type ad) then Ok (AErr (in_name ad, ANonNullNull, l))
      else if is_undef v then Ok (AErr (in_name ad, AInvalidValue, l)) else Ok (AVal v)
  | GLit node => coerce_lit fuel ad vs node (lit_loc node)
  end.

Lemma argument_coercer_given fuel ad floc anode vs :
  argument_coercer sch fuel ad floc anode vs = coerce_given fuel ad vs (given_of floc anode vs).
Proof.
  unfold argument_coercer, given_of, coerce_given, var_lookup.
  destruct anode as [a|]; [destruct (a_value a) as [l x| | | | | | | | ]; [destruct (dict_get x vs) as [v|]|..]|]; try destruct (is_none v); reflexivity.
Qed.

Definition given_loc (g : given) : loc :=
  match g with GNothing l _ | GNull l | GVar l _ => l | GLit node => lit_loc node end.

Lemma argument_coercer_error fuel ad floc anode vs n k l :
  argument_coercer sch fuel ad floc anode vs = Ok (AErr (n, k, l)) ->
  n = in_name ad /\ (l = floc \/ exists a, anode = Some a /\ l = lit_loc (a_value a)).
Proof.
  rewrite argument_coercer_given. intros H.
  assert (n = in_name ad /\ l = given_loc (given_of floc anode vs)) as [-> ->].
  { revert H. unfold coerce_given, coerce_lit.
    destruct (given_of floc anode vs) as [eloc k'|eloc|eloc v|node]; [destruct (in_default ad)| | |];
      try (destruct (get_literal_coercer sch fuel (in_type ad) vs false _) as [v'|]; cbn [bind]; [destruct (is_undef v')|]);
      try destruct (is_none v && is_non_null (in_type ad)); try destruct (is_undef v);
      try destruct (is_non_null (in_type ad)); intros H; inversion H; auto. }
  split; [reflexivity|]. unfold given_of. destruct anode as [a|]; [right; exists a; split; [reflexivity|]|now left].
  destruct (a_value a) as [lo x| | | | | | | | ]; try reflexivity. now destruct (dict_get x vs).
Qed.

Definition spec_lit (cl : ty -> lit -> res (option pyval)) (ad : input_def) (node : lit) : res sarg :=
  bind (cl (in_type ad) node) (fun r => match r with Some v => Ok (SValue v) | None => Ok SFieldError end).

Definition spec_given (cl : ty -> lit -> res (option pyval)) (ad : input_def) (g : given) : res sarg :=
  match g with
  | GNothing _ _ =>
      match in_default ad with
      | Some d => spec_lit cl ad d
      | None => if is_non_null (in_type ad) then Ok SFieldError else Ok SAbsent
      end
  | GNull _ => if is_non_null (in_type ad) then Ok SFieldError else Ok (SValue PNone)
  | GVar _ v =>
      if is_none v && is_non_null (in_type ad) then Ok SFieldError
      else if is_undef v then Ok SFieldError else Ok (SValue v)
  | GLit node => spec_lit cl ad node
  end.

Lemma spec_argument_given cl ad floc anode vs :
  spec_argument cl ad anode vs = spec_given cl ad (given_of floc anode vs).
Proof.
  unfold spec_argument, given_of, spec_given.
  destruct anode as [a|]; [destruct (a_value a) as [l x| | | | | | | | ]; [destruct (dict_get x vs) as [[]|]|..]|]; destruct (is_non_null (in_type ad)); reflexivity.
Qed.

(* `cl` is the coercion of literals the specification is read with; it must be the engine's *)
Lemma coerce_lit_refines cl fuel ad vs node eloc :
  (forall t l, cl t l = impl_coerce_literal fuel vs t l) ->
  res_matches (coerce_lit fuel ad vs node eloc) (spec_lit cl ad node).
Proof.
  intros Hcl. unfold coerce_lit, spec_lit. rewrite Hcl. unfold impl_coerce_literal.
  destruct (get_literal_coercer sch fuel (in_type ad) vs false node) as [v|]; cbn; [destruct (is_undef v)|]; cbn; auto.
Qed.

Theorem argument_coercer_refines cl fuel ad floc anode vs :
  (forall t l, cl t l = impl_coerce_literal fuel vs t l) ->
  res_matches (argument_coercer sch fuel ad floc anode vs) (spec_argument cl ad anode vs).
Proof.
  intros Hcl. rewrite argument_coercer_given, (spec_argument_given cl ad floc). unfold coerce_given, spec_given.
  destruct (given_of floc anode vs) as [eloc k|l|l v|node]; try now apply coerce_lit_refines.
  - destruct (in_default ad); [now apply coerce_lit_refines|]. destruct (is_non_null (in_type ad)); exact I.
  - destruct (is_non_null (in_type ad)); cbn; auto.
  - destruct (is_none v && is_non_null (in_type ad)); [exact I|]. destruct (is_undef v); cbn; auto.
Qed.

(* the whole argument map: the same dictionary; argument errors exactly when the specification throws a field error *)
Definition map_matches (a : res (list (string * pyval) * list aerr)) (b : res (list (string * pyval) * bool)) : Prop :=
  match a, b with
  | Ok (vals, errs), Ok (svals, failed) => vals = svals /\ (errs <> [] <-> failed = true)
  | Raise e, Raise e' => e = e'
  | _, _ => False
  end.

Theorem coerce_arguments_refines cl fuel ads floc anodes vs :
  (forall t l, cl t l = impl_coerce_literal fuel vs t l) ->
  map_matches (coerce_arguments_aux sch fuel ads floc anodes vs) (spec_arguments cl ads anodes vs).
Proof.
  intros Hcl. induction ads as [|ad ads IH]; cbn [coerce_arguments_aux spec_arguments].
  - split; [reflexivity|]. split; [intros H; now elim H|discriminate].
  - pose proof (argument_coercer_refines cl fuel ad floc (find_arg (in_name ad) anodes) vs Hcl) as Ha.
    destruct (argument_coercer sch fuel ad floc (find_arg (in_name ad) anodes) vs) as [o|e];
      destruct (spec_argument cl ad (find_arg (in_name ad) anodes) vs) as [so|e']; cbn in Ha; try contradiction.
    + destruct (coerce_arguments_aux sch fuel ads floc anodes vs) as [[vals errs]|e2];
        destruct (spec_arguments cl ads anodes vs) as [[svals failed]|e2']; cbn in IH; try contradiction.
      * destruct IH as [-> IH].
        destruct o as [|v|er]; destruct so as [|w|]; cbn in Ha; try contradiction.
        -- split; [reflexivity|exact IH].
        -- subst w. split; [reflexivity|exact IH].
        -- split; [reflexivity|]. split; [reflexivity|discriminate].
      * subst e2'. reflexivity.
    + subst e'. reflexivity.
Qed.

(* the executor calls coerce_arguments, which answers {} at once when no argument is declared *)
Lemma coerce_arguments_is_aux fuel ads floc anodes vs :
  coerce_arguments sch fuel ads floc anodes vs = coerce_arguments_aux sch fuel ads floc anodes vs.
Proof. now destruct ads. Qed.

Lemma coerce_arguments_aux_In fuel floc anodes vs : forall ads vals errs,
  coerce_arguments_aux sch fuel ads floc anodes vs = Ok (vals, errs) ->
  (forall k w, In (k, w) vals <->
     exists ad, In ad ads /\ in_name ad = k /\
                argument_coercer sch fuel ad floc (find_arg (in_name ad) anodes) vs = Ok (AVal w)) /\
  (forall e, In e errs <->
     exists ad, In ad ads /\ argument_coercer sch fuel ad floc (find_arg (in_name ad) anodes) vs = Ok (AErr e)).
Proof.
  induction ads as [|ad ads IH]; intros vals errs; cbn [coerce_arguments_aux].
  - intros [= <- <-]. split; (split; [contradiction|intros (? & [] & _)]).
  - destruct (argument_coercer sch fuel ad floc _ vs) as [o|] eqn:Ea; [|discriminate].
    destruct (coerce_arguments_aux sch fuel ads floc anodes vs) as [[vals' errs']|]; [|discriminate].
    destruct (IH vals' errs' eq_refl) as [Hv He].
    destruct o as [|v|er]; intros [= <- <-]; split; intros; rewrite exists_cons, <- ?Hv, <- ?He, Ea; cbn [In].
    (* nothing delivered, a value, an error; for each the side of the values, then that of the errors *)
    + split; [now right|intros [(_ & [=])|H]; exact H].
    + split; [now right|intros [[=]|H]; exact H].
    + split; [intros [[= <- <-]|H]; auto|intros [(<- & [= <-])|H]; auto].
    + split; [now right|intros [[=]|H]; exact H].
    + split; [now right|intros [(_ & [=])|H]; exact H].
    + split; [intros [<-|H]; auto|intros [[= <-]|H]; auto].
Qed.
End Refine.
