(* Consequences of the specification model of variable coercion used by property C04. *)
From Coq Require Import List.
From TV Require Import Py.Prelude Model.Schema Model.ImplInput Model.SpecInput Proofs.ListFacts Proofs.InputRefine.
Import ListNotations.

Section Facts.
Variable sch : schema.

Lemma spec_variable_depends_on_own_entry fuel vd raw raw' :
  dict_get (v_name vd) raw = dict_get (v_name vd) raw' ->
  spec_variable sch fuel vd raw = spec_variable sch fuel vd raw'.
Proof. unfold spec_variable. now intros ->. Qed.

Theorem extra_variables_ignored fuel vds raw raw' :
  (forall vd, In vd vds -> dict_get (v_name vd) raw = dict_get (v_name vd) raw') ->
  spec_coerce_variables sch fuel vds raw = spec_coerce_variables sch fuel vds raw'.
Proof.
  induction vds as [|vd vds IH]; intros H; cbn [spec_coerce_variables]; [reflexivity|].
  rewrite (spec_variable_depends_on_own_entry fuel vd raw raw') by (apply H; now left).
  rewrite IH; [reflexivity|]. intros; apply H; now right.
Qed.

Lemma spec_coerce_variables_In fuel raw : forall vds vals errs,
  spec_coerce_variables sch fuel vds raw = Ok (vals, errs) ->
  (forall x v, In (x, v) vals <->
     exists vd, In vd vds /\ v_name vd = x /\ spec_variable sch fuel vd raw = Ok (Some (v, []))) /\
  (forall n e, In (n, e) errs <->
     exists vd, In vd vds /\ v_name vd = n /\
                exists v es, spec_variable sch fuel vd raw = Ok (Some (v, es)) /\ In e es).
Proof.
  induction vds as [|vd vds IH]; intros vals errs; cbn [spec_coerce_variables].
  - intros [= <- <-]. split; (split; [contradiction|intros (? & [] & _)]).
  - destruct (spec_variable sch fuel vd raw) as [o|] eqn:Ev; [|discriminate].
    destruct (spec_coerce_variables sch fuel vds raw) as [[vals' errs']|]; [|discriminate].
    destruct (IH vals' errs' eq_refl) as [Hv He].
    destruct o as [[v0 [|e0 es0]]|]; intros [= <- <-]; split; intros;
      rewrite exists_cons, <- ?Hv, <- ?He, Ev.
    (* a value without errors, a value with errors, nothing delivered; for each the side of the values, then that of the errors *)
    + cbn [In]. split; [intros [[= <- <-]|H]; auto|intros [(<- & [= <-])|H]; auto].
    + split; [now right|intros [(_ & ? & ? & [= <- <-] & [])|H]; exact H].
    + split; [now right|intros [(_ & [=])|H]; exact H].
    + rewrite (in_app_iff (map (fun x => (v_name vd, x)) (e0 :: es0)) errs' (n, e)), in_map_iff. split.
      * intros [(x & [= <- <-] & Hx)|H]; [left; eauto|now right].
      * intros [(<- & ? & ? & [= <- <-] & Hx)|H]; [eauto|now right].
    + split; [now right|intros [(_ & [=])|H]; exact H].
    + split; [now right|intros [(_ & ? & ? & [=] & _)|H]; exact H].
Qed.

Theorem errors_sound fuel raw vds vals errs n e :
  spec_coerce_variables sch fuel vds raw = Ok (vals, errs) ->
  In (n, e) errs ->
  exists vd v es, In vd vds /\ v_name vd = n /\
                  spec_variable sch fuel vd raw = Ok (Some (v, es)) /\ In e es.
Proof.
  intros H Hin. apply (spec_coerce_variables_In fuel raw vds vals errs H) in Hin.
  destruct Hin as (vd & ? & ? & v & es & ? & ?). exists vd, v, es. auto.
Qed.

Theorem errors_complete fuel raw vds vals errs vd v e es :
  spec_coerce_variables sch fuel vds raw = Ok (vals, errs) ->
  In vd vds -> spec_variable sch fuel vd raw = Ok (Some (v, e :: es)) ->
  In (v_name vd, e) errs.
Proof.
  intros H Hin Hs. apply (spec_coerce_variables_In fuel raw vds vals errs H).
  exists vd. repeat split; auto. exists v, (e :: es). split; [exact Hs|now left].
Qed.

Theorem absent_stays_absent fuel vd raw :
  dict_get (v_name vd) raw = None -> v_default vd = None -> is_non_null (v_type vd) = false ->
  spec_variable sch fuel vd raw = Ok None.
Proof. unfold spec_variable. now intros -> -> ->. Qed.

(* an explicit null at a nullable type: when the coercion answers at all, null is what is delivered
   (distinct from absent) *)
Theorem explicit_null_kept fuel vd raw :
  dict_get (v_name vd) raw = Some PNone -> is_non_null (v_type vd) = false ->
  spec_variable sch fuel vd raw = Raise OutOfFuel \/
  spec_variable sch fuel vd raw = Ok (Some (PNone, [])) \/
  (exists e, spec_variable sch fuel vd raw = Raise e).
Proof.
  unfold spec_variable. intros -> Hn. rewrite Hn. cbn [is_none andb].
  destruct (spec_coerce sch fuel (v_type vd) [] PNone) as [r|e] eqn:E; cbn [bind].
  - right; left. destruct (v_type vd) as [n|t|t]; try discriminate.
    + destruct fuel; [discriminate|]. cbn [spec_coerce] in E.
      destruct (find_type sch n) as [[ |values|fields|ifs fs|fs|ms]|];
        try (destruct (scalars sch n)); now inversion E.
    + rewrite spec_coerce_list in E. now inversion E.
  - right. eauto.
Qed.

(* a single non-list value is coerced as the one-element list, at every list level *)
Theorem single_value_wrapped fuel t p v :
  is_none v = false -> (forall l, v <> PList l) ->
  spec_coerce sch fuel (TList t) p v =
  bind (spec_coerce sch fuel t p v) (fun r => Ok (wrap_single r)).
Proof.
  intros Hn Hl. rewrite spec_coerce_list, Hn. destruct v; try reflexivity.
  exfalso. eapply Hl. reflexivity.
Qed.

Theorem non_null_missing_or_null_refused fuel vd raw :
  is_non_null (v_type vd) = true -> v_default vd = None ->
  (dict_get (v_name vd) raw = None \/ dict_get (v_name vd) raw = Some PNone) ->
  exists e, spec_variable sch fuel vd raw = Ok (Some (PNone, [e])).
Proof.
  unfold spec_variable. intros Hn Hd [-> | ->]; rewrite ?Hd, Hn; cbn; eauto.
Qed.

End Facts.
