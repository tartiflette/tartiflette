(* The three variable rules (5.8.3 all variable uses defined, 5.8.4 all variables used, 5.8.5 all variable usages are
   allowed), EXACT over the books of the walk -- which Proofs/ValidateScopes.v shows to be a pure function of the
   document.  What an operation "sees" is what is recorded in its own scope plus what is recorded in every fragment
   REACHABLE through spreads (the engine's traversal has no visited set: it returns a result exactly when it
   terminates, and then membership is reachability). *)
From Coq Require Import List String Bool.
From TV Require Import Model.Schema Model.ImplValidate Proofs.ListFacts Proofs.ValidateWalk.
Import ListNotations.

Section Vars.
Variable V : vschema.

(* fragments reachable from a list of spread names, through the recorded spreads of each fragment's scope *)
Inductive reachf (pf : list (string * scope_info)) : list string -> string -> Prop :=
| reachf_here spreads n : In n spreads -> reachf pf spreads n
| reachf_step spreads m n : reachf pf spreads m -> In n (si_spreads (scope_of pf m)) -> reachf pf spreads n.

Lemma reachf_mono pf a b n : (forall x, In x a -> In x b) -> reachf pf a n -> reachf pf b n.
Proof. intros H. induction 1 as [sp n Hn|sp m n Hm IH Hn]; [apply reachf_here; auto|eapply reachf_step; eauto]. Qed.
Lemma reachf_lift pf sp spreads n : (forall x, In x sp -> reachf pf spreads x) -> reachf pf sp n -> reachf pf spreads n.
Proof.
  intros H. induction 1 as [sp0 n Hn|sp0 k n Hk IH Hn]; [now apply H|eapply reachf_step; [apply IH; exact H|exact Hn]].
Qed.
Lemma reachf_via pf spreads m n : In m spreads -> reachf pf (si_spreads (scope_of pf m)) n -> reachf pf spreads n.
Proof.
  intros Hm. apply reachf_lift. intros x Hx. eapply reachf_step; [apply reachf_here; exact Hm|exact Hx].
Qed.

Section Closure.
Context {A : Type}.
Variable pf : list (string * scope_info).
Variable get : scope_info -> list A.

Definition seen (spreads : list string) (x : A) : Prop := exists n, reachf pf spreads n /\ In x (get (scope_of pf n)).

Lemma seen_cons n r x : seen (n :: r) x <-> (In x (get (scope_of pf n)) \/ seen (si_spreads (scope_of pf n)) x) \/ seen r x.
Proof.
  (* left to right: split on where the chain of spreads starts -- at n, in n's own spreads, or in r; the inner
     induction carries the split one more hop *)
  split.
  - intros (k & Hk & Hx). revert Hx. remember (n :: r) as sp0. induction Hk as [sp k Hin|sp m k Hm IH Hin]; subst sp.
    + destruct Hin as [<-|Hin]; [left; now left|right; exists k; split; [now apply reachf_here|exact Hx]].
    + assert (Hm' : (m = n \/ reachf pf (si_spreads (scope_of pf n)) m) \/ reachf pf r m).
      { clear - Hm. remember (n :: r) as sp1. induction Hm as [sp m Hin|sp j m Hj IHj Hin]; subst sp.
        - destruct Hin as [<-|Hin]; [left; now left|right; now apply reachf_here].
        - destruct (IHj eq_refl) as [[->|Hj']|Hj']; [left; right; now apply reachf_here|left; right; eapply reachf_step; eauto|right; eapply reachf_step; eauto]. }
      destruct Hm' as [[->|Hm']|Hm'].
      * left. right. exists k. split; [now apply reachf_here|exact Hx].
      * left. right. exists k. split; [eapply reachf_step; eauto|exact Hx].
      * right. exists k. split; [eapply reachf_step; eauto|exact Hx].
  - intros [[Hx|(k & Hk & Hx)]|(k & Hk & Hx)].
    + exists n. split; [apply reachf_here; now left|exact Hx].
    + exists k. split; [eapply reachf_via; [now left|exact Hk]|exact Hx].
    + exists k. split; [eapply reachf_mono; [|exact Hk]; now right|exact Hx].
Qed.

Lemma seen_nil x : ~ seen [] x.
Proof.
  intros (k & Hk & _). remember (@nil string) as sp0. induction Hk as [sp k Hin|sp m k Hm IH Hin]; subst sp; [contradiction|now apply IH].
Qed.

Lemma via_spreads_mem : forall fuel spreads l,
  via_spreads fuel pf get spreads = Some l -> forall x, In x l <-> seen spreads x.
Proof.
  induction fuel as [|fuel IH]; intros spreads l H; [discriminate|].
  assert (Hgen : forall xs acc l0,
            (fix each (xs : list string) (acc : list A) : option (list A) :=
               match xs with
               | [] => Some acc
               | n :: r => match via_spreads fuel pf get (si_spreads (scope_of pf n)) with
                           | Some nested => each r (acc ++ nested ++ get (scope_of pf n))
                           | None => None end
               end) xs acc = Some l0 ->
            forall x, In x l0 <-> In x acc \/ seen xs x).
  { induction xs as [|n r IHr]; intros acc l0 H0 x.
    - injection H0 as <-. split; [now left|intros [Hx|Hx]; [exact Hx|now apply seen_nil in Hx]].
    - destruct (via_spreads fuel pf get (si_spreads (scope_of pf n))) as [nested|] eqn:Hn; [|discriminate].
      rewrite (IHr _ _ H0 x), !in_app_iff, (IH _ _ Hn x), seen_cons. tauto. }
  intros x. rewrite (Hgen spreads [] l H x). split; [intros [[]|Hx]; exact Hx|now right].
Qed.
End Closure.

Definition op_sees {A} (st : vctx) (get : scope_info -> list A) (o : operation) (x : A) : Prop :=
  In x (get (scope_of (per_op st) (op_key o))) \/
  seen (per_frag st) get (si_spreads (scope_of (per_op st) (op_key o))) x.

Lemma scope_collect_mem {A} st (get : scope_info -> list A) o l :
  scope_collect st get o = Some l -> forall x, In x l <-> op_sees st get o x.
Proof.
  unfold scope_collect. destruct (via_spreads _ _ _ _) as [l0|] eqn:H; [|discriminate].
  intros E x. injection E as <-. rewrite in_app_iff, (via_spreads_mem _ _ _ _ _ H x). reflexivity.
Qed.

(* the shape shared by the three rules *)
Lemma fold_rule_quiet {U} (c : operation -> option U) (E : operation -> U -> list verror) ops :
  fold_left (fun acc o => match acc, c o with
                          | Some es, Some u => Some (es ++ E o u)
                          | _, _ => None end) ops (Some []) = Some [] <->
  forall o, In o ops -> exists u, c o = Some u /\ E o u = [].
Proof.
  rewrite (fold_seqs _ (fun o => option_map (E o) (c o))) by (intros [es|] o; destruct (c o); reflexivity).
  rewrite seqs_map_quiet. split; intros H o Ho; specialize (H o Ho); destruct (c o) as [u|]; cbn in *.
  - exists u. split; [reflexivity|now injection H].
  - discriminate.
  - destruct H as (u' & E1 & E2). injection E1 as <-. now rewrite E2.
  - destruct H as (? & ? & _). discriminate.
Qed.

Lemma grouped_errors_nil (mk : string * list loc -> verror) l : map mk (group_vars l []) = [] <-> l = [].
Proof.
  split.
  - intros H. apply map_eq_nil in H. now apply group_vars_nil in H.
  - intros ->. reflexivity.
Qed.
(* 5.8.3: every variable an operation uses -- in its own selection tree or in a fragment it reaches -- is
   declared by that operation *)
Theorem uses_defined_exact st ops :
  uses_defined_rule st ops = Some [] <->
  forall o, In o ops ->
    scope_collect st si_used o <> None /\
    forall n l, op_sees st si_used o (n, l) -> exists vd, In vd (o_vars o) /\ v_name vd = n.
Proof.
  unfold uses_defined_rule.
  rewrite (fold_rule_quiet (scope_collect st si_used)
             (fun o used => map (fun g => mkerr "all-variable-uses-defined" None (o_loc o :: snd g))
                                (group_vars (filter (fun u => negb (existsb (fun vd => String.eqb (v_name vd) (fst u)) (o_vars o))) used) []))).
  split; intros H o Ho; specialize (H o Ho).
  - destruct H as (used & Ec & He). split; [congruence|]. intros n l Hs.
    apply grouped_errors_nil in He. rewrite filter_nil_iff in He.
    apply (scope_collect_mem st si_used o used Ec) in Hs. specialize (He (n, l) Hs).
    apply negb_false_iff, existsb_exists in He. destruct He as (vd & Hvd & Heq). apply String.eqb_eq in Heq. eauto.
  - destruct H as [Hc Hd]. destruct (scope_collect st si_used o) as [used|] eqn:Ec; [|now elim Hc].
    exists used. split; [reflexivity|]. apply grouped_errors_nil, filter_nil_iff. intros [n l] Hin.
    apply negb_false_iff, existsb_exists.
    destruct (Hd n l (proj1 (scope_collect_mem st si_used o used Ec (n, l)) Hin)) as (vd & Hvd & <-).
    exists vd. split; [exact Hvd|apply String.eqb_refl].
Qed.

(* 5.8.4: every declared variable is used in the operation's selection tree or in a fragment it reaches *)
Theorem variables_used_exact st ops :
  variables_used_rule st ops = Some [] <->
  forall o, In o ops ->
    scope_collect st si_used o <> None /\
    forall vd, In vd (o_vars o) -> exists l, op_sees st si_used o (v_name vd, l).
Proof.
  unfold variables_used_rule.
  rewrite (fold_rule_quiet (scope_collect st si_used)
             (fun o used => map (fun g => mkerr "all-variables-used" None (o_loc o :: snd g))
                                (group_vars (map (fun vd => (v_name vd, v_loc vd))
                                               (filter (fun vd => negb (existsb (fun u => String.eqb (fst u) (v_name vd)) used)) (o_vars o))) []))).
  split; intros H o Ho; specialize (H o Ho).
  - destruct H as (used & Ec & He). split; [congruence|]. intros vd Hvd.
    apply grouped_errors_nil, map_eq_nil in He. rewrite filter_nil_iff in He. specialize (He vd Hvd).
    apply negb_false_iff, existsb_exists in He. destruct He as ([n l] & Hin & Heq). cbn [fst] in Heq. apply String.eqb_eq in Heq. subst n.
    exists l. now apply (scope_collect_mem st si_used o used Ec).
  - destruct H as [Hc Hd]. destruct (scope_collect st si_used o) as [used|] eqn:Ec; [|now elim Hc].
    exists used. split; [reflexivity|].
    assert (Hf : filter (fun vd => negb (existsb (fun u => String.eqb (fst u) (v_name vd)) used)) (o_vars o) = []).
    { apply filter_nil_iff. intros vd Hvd. apply negb_false_iff, existsb_exists. destruct (Hd vd Hvd) as (l & Hs).
      exists (v_name vd, l). split; [now apply (scope_collect_mem st si_used o used Ec)|apply String.eqb_refl]. }
    now rewrite Hf.
Qed.

(* 5.8.5: every recorded use of a variable as the value of an argument the schema knows, by an operation
   declaring that variable, passes the position check *)
Theorem usages_allowed_exact st ops :
  usages_allowed_rule V st ops = Some [] <->
  forall o, In o ops ->
    scope_collect st si_args o <> None /\
    forall u a vd, op_sees st si_args o u -> schema_argument V u = Some a ->
                   find (fun vd0 => String.eqb (v_name vd0) (au_var u)) (o_vars o) = Some vd -> usage_ok a vd = true.
Proof.
  unfold usages_allowed_rule.
  rewrite (fold_rule_quiet (scope_collect st si_args)
             (fun o uses => flat_map (fun u =>
                match schema_argument V u, find (fun vd => String.eqb (v_name vd) (au_var u)) (o_vars o) with
                | Some a, Some vd => if usage_ok a vd then [] else [mkerr "all-variable-usages-are-allowed" (au_path u) [v_loc vd; au_varloc u]]
                | _, _ => [] end) uses)).
  split; intros H o Ho; specialize (H o Ho).
  - destruct H as (uses & Ec & He). split; [congruence|]. intros u a vd Hs Ha Hvd.
    apply (scope_collect_mem st si_args o uses Ec) in Hs. rewrite flat_map_nil_iff in He. specialize (He u Hs).
    rewrite Ha, Hvd in He. destruct (usage_ok a vd); [reflexivity|discriminate].
  - destruct H as [Hc Hd]. destruct (scope_collect st si_args o) as [uses|] eqn:Ec; [|now elim Hc].
    exists uses. split; [reflexivity|]. apply flat_map_nil_iff. intros u Hin.
    destruct (schema_argument V u) as [a|] eqn:Ha; [|reflexivity].
    destruct (find _ (o_vars o)) as [vd|] eqn:Hvd; [|reflexivity].
    now rewrite (Hd u a vd (proj1 (scope_collect_mem st si_args o uses Ec u) Hin) Ha Hvd).
Qed.

End Vars.
