(* The steps of the build model (Model/SchemaBuild.v impl_build), one fact per step. *)
From Coq Require Import List.
From TV Require Import Model.SchemaBuild Model.SpecSchema.
Import ListNotations.

Lemma initial_inl s g0 : initial s = inl g0 -> g_types g0 = all_decls s /\ g_schema_dirs g0 = s_schema_dirs s.
Proof.
  unfold initial. destruct (first_dup (map td_name _) []); [discriminate|].
  destruct (first_dup _ []); [discriminate|]. intros H. injection H as <-. split; reflexivity.
Qed.

Lemma impl_build_Built s g : impl_build s = Built g ->
  exists g0, initial s = inl g0 /\ validate_extensions g0 (s_exts s) = [] /\
             g = fold_left apply_ext (s_exts s) g0 /\ validate g = Some [].
Proof.
  unfold impl_build. destruct (initial s) as [g0|]; [|discriminate].
  destruct (validate_extensions g0 (s_exts s)) eqn:Ex; [|discriminate].
  destruct (validate (fold_left apply_ext (s_exts s) g0)) as [[|]|] eqn:Ev; try discriminate.
  intros H. injection H as <-. now exists g0.
Qed.

Lemma not_built s g0 : initial s = inl g0 ->
  validate_extensions g0 (s_exts s) <> [] \/ validate (fold_left apply_ext (s_exts s) g0) <> Some [] -> builds s = false.
Proof.
  intros Hi H. destruct (builds s) eqn:B; [|reflexivity]. unfold builds in B.
  destruct (impl_build s) as [g| |] eqn:E; try discriminate.
  destruct (impl_build_Built s g E) as (g0' & Hi' & Hx & -> & Hv). rewrite Hi in Hi'. injection Hi' as <-. tauto.
Qed.
