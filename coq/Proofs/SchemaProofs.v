(* Lemmas about the build model (Model/SchemaBuild.v) against the specification predicates
   (Model/SpecSchema.v). *)
From Coq Require Import List String Bool.
From TV Require Import Model.Schema Model.ImplValidate Model.SpecValidate Model.SchemaBuild Model.SpecSchema
     Proofs.ValidateProofs Proofs.ListFacts Proofs.BuildFacts.
Import ListNotations.

Lemma existsb_In {A} (p : A -> bool) l : existsb p l = true -> exists x, In x l /\ p x = true.
Proof. apply existsb_exists. Qed.

Lemma first_dup_none l seen :
  first_dup l seen = None <-> NoDup l /\ (forall x, In x l -> ~ In x seen).
Proof.
  revert seen; induction l as [|x l IH]; intros seen; cbn [first_dup].
  - split; [split; [constructor|intros ? []]|reflexivity].
  - destruct (mem_str x seen) eqn:E.
    + split; [discriminate|]. intros [_ H]. apply mem_str_iff in E. exfalso. apply (H x); [now left|exact E].
    + apply mem_str_false in E. rewrite IH. split.
      * intros [Hn H]. split.
        -- constructor; [|exact Hn]. intros Hi. apply (H x Hi). now left.
        -- intros y [<-|Hy]; [exact E|]. intros Hs. apply (H y Hy). now right.
      * intros [Hn H]. inversion Hn. split; [assumption|].
        intros y Hy [<-|Hs]; [contradiction|]. apply (H y); [now right|exact Hs].
Qed.

Lemma first_dup_nodupb l : first_dup l [] = None <-> nodupb l = true.
Proof.
  rewrite first_dup_none, nodupb_iff. split; [intros [H _]; exact H| split; [exact H|intros ? _ []]].
Qed.

Theorem duplicate_definitions_rejected s : v_duplicate_definitions s = true -> builds s = false.
Proof.
  unfold v_duplicate_definitions, builds, impl_build, initial, all_decls, all_ddecls. intros H.
  destruct (first_dup (map td_name (s_types s ++ builtin_types)) []) eqn:E1; [reflexivity|].
  destruct (first_dup (map (fun d => dd_name (dd_def d)) (s_dirdefs s ++ builtin_ddecls)) []) eqn:E2; [reflexivity|].
  apply first_dup_nodupb in E1. apply first_dup_nodupb in E2. rewrite E1, E2 in H. discriminate.
Qed.

Lemma validate_clean g : validate g = Some [] ->
  v_named_types g = [] /\ v_follow_interfaces g = Some [] /\ SchemaBuild.v_roots g = [] /\ v_non_empty g = [] /\
  v_unions g = [] /\ v_scalars g = [] /\ v_enums g = [] /\ v_arguments g = [] /\ v_input_fields g = [] /\ v_directives g = [].
Proof.
  unfold validate. destruct (v_follow_interfaces g) as [follow|]; [|discriminate]. intros H. injection H as H.
  repeat (apply app_eq_nil in H; destruct H as [? H]). subst follow. repeat split; assumption.
Qed.

Lemma union_self_reported g : v_union_self g = true -> v_unions g <> [].
Proof.
  apply existsb_flagged. intros t _. destruct (td_def t) as [| | | | |ms]; try discriminate. intros H.
  apply mem_str_iff in H. apply (flat_map_nonnil _ ms (td_name t) H). rewrite String.eqb_refl. discriminate.
Qed.

Lemma empty_object_reported g : v_empty_object g = true -> v_non_empty g <> [].
Proof. apply existsb_flagged. intros t _. destruct (td_def t) as [| | |ifs [|]| |]; discriminate. Qed.

Lemma scalar_impl_reported g : v_scalar_impl g = true -> v_scalars g <> [].
Proof. apply existsb_flagged. intros t _. destruct (td_def t); try discriminate. now destruct (mem_str _ _). Qed.

Lemma hooks_reported g : v_hooks g = true -> v_directives g <> [].
Proof. apply unchecked_flagged. Qed.

Lemma roots_reported g : SpecSchema.v_roots g = true -> SchemaBuild.v_roots g <> [].
Proof.
  unfold SpecSchema.v_roots, SchemaBuild.v_roots, defined. intros H.
  destruct (g_has_type g (g_query g)); cbn [negb] in *; [|discriminate].
  destruct (negb (String.eqb (g_mutation g) "Mutation") && negb (g_has_type g (g_mutation g))); [discriminate|].
  cbn [orb app] in H. rewrite H. discriminate.
Qed.

(* `doubles` (repeated enum values) and `first_dup` (redefinitions) are the same scan *)
Lemma doubles_nil l : forall seen double, doubles l seen double = [] <-> double = [] /\ first_dup l seen = None.
Proof.
  induction l as [|x l IH]; intros seen double; cbn [doubles first_dup]; [tauto|].
  rewrite IH. destruct (mem_str x seen); cbn [andb]; [|tauto].
  destruct (mem_str x double) eqn:E; cbn [negb].
  - split; [intros [-> _]; discriminate|intros [_ ?]; discriminate].
  - split; [now destruct double|intros [_ ?]; discriminate].
Qed.

Lemma enum_duplicates_reported g : v_enum_duplicates g = true -> v_enums g <> [].
Proof.
  apply existsb_flagged. intros t _. destruct (td_def t) as [|vs| | | |]; try discriminate. intros H E.
  apply map_eq_nil, doubles_nil in E. destruct E as [_ E]. apply first_dup_nodupb in E. now rewrite E in H.
Qed.

(* the three nested traversals are flag lists over the specification's flattenings *)
Lemma v_named_types_flat g :
  v_named_types g = flat_map (fun f => if g_has_type g (named_of (fd_type f)) then [] else ["unknown-field-type"]) (all_out_fields g).
Proof. unfold all_out_fields. rewrite flat_map_flat_map. apply flat_map_ext. intros t. now destruct (out_fields (td_def t)). Qed.

Lemma v_arguments_flat g :
  v_arguments g = flat_map (fun a => if is_input_name g (named_of (in_type a)) then [] else ["argument-not-input-type"]) (all_args g).
Proof.
  unfold all_args, all_out_fields, v_arguments. rewrite flat_map_app, !flat_map_flat_map. f_equal.
  apply flat_map_ext. intros t. destruct (out_fields (td_def t)); [|reflexivity].
  apply flat_map_ext. now destruct (String.eqb (td_name t) (g_query g)).
Qed.

Lemma v_input_fields_flat g :
  v_input_fields g = flat_map (fun a => if is_input_name g (named_of (in_type a)) then [] else ["input-field-not-input-type"]) (all_input_fields g).
Proof. unfold all_input_fields. rewrite flat_map_flat_map. apply flat_map_ext. intros t. now destruct (td_def t). Qed.

Lemma undefined_output_type_reported g :
  existsb (fun f => negb (defined g (named_of (fd_type f)))) (all_out_fields g) = true -> v_named_types g <> [].
Proof. rewrite v_named_types_flat. apply unchecked_flagged. Qed.

Lemma non_input_argument_reported g :
  existsb (fun a => negb (is_input_name g (named_of (in_type a)))) (all_args g) = true -> v_arguments g <> [].
Proof. rewrite v_arguments_flat. apply unchecked_flagged. Qed.

Lemma non_input_field_reported g :
  existsb (fun a => negb (is_input_name g (named_of (in_type a)))) (all_input_fields g) = true -> v_input_fields g <> [].
Proof. rewrite v_input_fields_flat. apply unchecked_flagged. Qed.

Definition defect_after_merge (g : gschema) : bool :=
  existsb (fun f => negb (defined g (named_of (fd_type f)))) (all_out_fields g) ||
  existsb (fun a => negb (is_input_name g (named_of (in_type a)))) (all_args g) ||
  existsb (fun a => negb (is_input_name g (named_of (in_type a)))) (all_input_fields g) ||
  SpecSchema.v_roots g || v_empty_object g || v_union_self g || v_enum_duplicates g || v_scalar_impl g || v_hooks g.

Theorem defect_rejected g : defect_after_merge g = true -> validate g <> Some [].
Proof.
  unfold defect_after_merge. intros H E. apply validate_clean in E.
  destruct E as (E1 & _ & E3 & E4 & E5 & E6 & E7 & E8 & E9 & E10).
  repeat rewrite orb_true_iff in H.
  destruct H as [[[[[[[[H|H]|H]|H]|H]|H]|H]|H]|H].
  - now apply undefined_output_type_reported in H.
  - now apply non_input_argument_reported in H.
  - now apply non_input_field_reported in H.
  - now apply roots_reported in H.
  - now apply empty_object_reported in H.
  - now apply union_self_reported in H.
  - now apply enum_duplicates_reported in H.
  - now apply scalar_impl_reported in H.
  - now apply hooks_reported in H.
Qed.

Theorem build_rejects_defects s g0 :
  initial s = inl g0 -> defect_after_merge (fold_left apply_ext (s_exts s) g0) = true -> builds s = false.
Proof. intros Hi Hd. apply (not_built s g0 Hi). right. now apply defect_rejected. Qed.

Lemma ty_eqb_valid g t : forall u, ty_eqb t u = true -> valid_impl_type g t u = true.
Proof.
  induction t as [n|t IH|t IH]; destruct u as [m|u|u]; cbn [ty_eqb valid_impl_type]; try discriminate.
  - intros H. now rewrite H.
  - apply IH.
  - apply IH.
Qed.

(* the engine's interface field-type check IS the specification's covariance rule *)
Theorem interface_type_check_exact g ft : forall it,
  same_as_interface_type g ft it = Some (valid_impl_type g ft it).
Proof.
  induction ft as [n|ft IH|ft IH]; intros it; cbn [same_as_interface_type].
  - destruct (ty_eqb (TNamed n) it) eqn:E; [now rewrite (ty_eqb_valid g _ _ E)|].
    destruct it as [i|it|it]; try reflexivity. cbn [ty_eqb] in E. cbn [valid_impl_type]. rewrite E.
    destruct (g_find g i) as [[| | | | |]|]; reflexivity.
  - destruct (ty_eqb (TList ft) it) eqn:E; [now rewrite (ty_eqb_valid g _ _ E)|].
    destruct it as [i|it|it]; try reflexivity. apply IH.
  - destruct (ty_eqb (TNonNull ft) it) eqn:E; [now rewrite (ty_eqb_valid g _ _ E)|].
    destruct it as [i|it|it]; apply IH.
Qed.
